(* Proofs about the NotifierDelay model (Delay/Model.v), for all periods,
   construction times, schedules and operation lists.  Two notions carry them:
   [at_grid] (the object between construction and release, [grid_run]) and
   [rel_inv] (how the HAL side follows [live]); the two-thread part lifts both
   through [cstep_obj] and meets the sequential part in [conc_extends_seq] and
   [conc_no_release_is_seq]. *)
From Coq Require Import ZArith QArith Qround Qabs List Bool Lia Lqa.
From RV Require Import Delay.Model.
Import ListNotations.
Open Scope Z_scope.

Lemma Zlt_inject_plus a b k : (inject_Z a < inject_Z b + (k # 1))%Q -> a < b + k.
Proof. rewrite Zlt_Qlt, inject_Z_plus. exact (fun H => H). Qed.

Lemma round_half_even_nearest (n : Z) (x : Q) :
  (Qabs (x - inject_Z n) < 1 # 2)%Q -> round_half_even x = n.
Proof.
  intros H. apply Qabs_Qlt_condition in H as [H1 H2]. unfold round_half_even.
  pose proof (Qfloor_le x) as Hf1. pose proof (Qlt_floor x) as Hf2.
  set (f := Qfloor x) in *. rewrite inject_Z_plus in Hf2. change (inject_Z 1) with 1%Q in Hf2.
  (* f <= x < f + 1 and n - 1/2 < x < n + 1/2 leave n = f or n = f + 1 *)
  assert (f < n + 1 /\ n < f + 2) as [A B] by (split; apply Zlt_inject_plus; lra).
  destruct (Qcompare (x - inject_Z f) (1 # 2)) eqn:E.
  - (* exactly half way between two integers: excluded by the hypothesis *)
    apply Qeq_alt in E. assert (f < n) by (rewrite Zlt_Qlt; lra).
    assert (n < f + 1) by (apply Zlt_inject_plus; lra). lia.
  - apply Qlt_alt in E. assert (n < f + 1) by (apply Zlt_inject_plus; lra). lia.
  - apply Qgt_alt in E. assert (f < n) by (rewrite Zlt_Qlt; lra). lia.
Qed.

Lemma period_whole_us (n : Z) (P : Q) :
  (Qabs (P * inject_Z 1000000 - inject_Z n) < 1 # 2)%Q -> period_us P = n.
Proof. apply round_half_even_nearest. Qed.

Lemma create_opt_rejects (P : Q) (t0 : Z) :
  create_opt P t0 = None <-> (P < 1 # 1000)%Q.
Proof.
  unfold create_opt. rewrite Qlt_alt.
  destruct (Qcompare P (1 # 1000)); split; intros H; (discriminate H || reflexivity).
Qed.

Lemma create_from_seconds (n : Z) (P : Q) (t0 : Z) :
  (1 # 1000 <= P)%Q ->
  (Qabs (P * inject_Z 1000000 - inject_Z n) < 1 # 2)%Q ->
  create_opt P t0 = Some (create n t0).
Proof.
  intros Hp Hn. unfold create_opt. rewrite (period_whole_us n P Hn).
  destruct (Qcompare P (1 # 1000)) eqn:E; try reflexivity.
  apply Qlt_alt in E. exfalso. apply (Qlt_irrefl P). eapply Qlt_le_trans; eauto.
Qed.

Lemma final_cons s o ops : final s (o :: ops) = final (step s o) ops.
Proof. reflexivity. Qed.

Lemma final_app s ops1 ops2 : final s (ops1 ++ ops2) = final (final s ops1) ops2.
Proof. apply fold_left_app. Qed.

(* [final] and the two-thread [crun] are folds: what every step preserves holds
   at the end, and a flag that a step clears exactly when [rel] holds of the
   operation is set at the end iff it was and no operation had [rel] *)
Lemma fold_left_invariant {St Op} (f : St -> Op -> St) (I : St -> Prop) :
  (forall s o, I s -> I (f s o)) -> forall os s, I s -> I (fold_left f os s).
Proof.
  intros HI os. induction os as [|o os IH]; intros s H; [exact H | apply IH, HI, H].
Qed.

Lemma fold_left_flag {St Op} (f : St -> Op -> St) (flag : St -> bool) (rel : Op -> bool) :
  (forall s o, flag (f s o) = flag s && negb (rel o)) ->
  forall os s, flag (fold_left f os s) = flag s && negb (existsb rel os).
Proof.
  intros Hf os. induction os as [|o os IH]; intros s; [symmetry; apply andb_true_r|].
  cbn [fold_left existsb]. rewrite IH, Hf, negb_orb. symmetry. apply andb_assoc.
Qed.

Lemma sched_cons b bs : sched (b :: bs) = Body b :: Wait :: sched bs.
Proof. reflexivity. Qed.

(* When the waits of a schedule are called does not depend on the object: one
   wait per body, each called when the body after the previous return ends. *)
Lemma sched_log_length bs : forall s, length (wait_log s (sched bs)) = length bs.
Proof.
  induction bs as [|b bs IH]; intros s; [reflexivity|].
  rewrite sched_cons. cbn [wait_log length]. f_equal. apply IH.
Qed.

Lemma sched_first_call bs s c r b :
  nth_error (wait_log s (sched bs)) 0 = Some (c, r) -> nth_error bs 0 = Some b ->
  c = snd s + b.
Proof.
  destruct bs as [|b' bs], s as [d now]; [discriminate|].
  rewrite sched_cons. cbn [wait_log step snd nth_error].
  intros [= <- _] [= ->]. reflexivity.
Qed.

Lemma sched_next_call bs : forall s i c r c' r' b,
  nth_error (wait_log s (sched bs)) i = Some (c, r) ->
  nth_error (wait_log s (sched bs)) (S i) = Some (c', r') ->
  nth_error bs (S i) = Some b -> c' = r + b.
Proof.
  induction bs as [|b0 bs IH]; intros s i c r c' r' b H H' Hb; [destruct i; discriminate|].
  rewrite sched_cons in H, H'. cbn [wait_log nth_error] in H, H', Hb.
  destruct i as [|i]; [|exact (IH _ _ _ _ _ _ _ H H' Hb)].
  injection H as _ <-. exact (sched_first_call _ _ _ _ _ H' Hb).
Qed.

(* An object that nobody has released stays on the grid *)

Definition no_release (ops : list op) : bool := forallb (fun o => negb (is_free o)) ops.

Lemma no_release_cons o ops : no_release (o :: ops) = negb (is_free o) && no_release ops.
Proof. reflexivity. Qed.

Lemma no_release_sched bs : no_release (sched bs) = true.
Proof. induction bs as [|b bs IH]; [reflexivity | exact IH]. Qed.

Lemma no_release_entered_late setup bs : no_release (entered_late setup bs) = true.
Proof. exact (no_release_sched bs). Qed.

Lemma grid_S t0 p k : grid t0 p (S k) = grid t0 p k + p.
Proof. unfold grid. lia. Qed.

(* The object from its construction until it is released: live, nothing
   released, and the alarm the HAL holds is its expiry, a point of the grid
   anchored at the construction instant. *)
Definition at_grid (t0 p : Z) (k : nat) : nd :=
  mkND p (grid t0 p k) true (Some (grid t0 p k)) 0.

Lemma create_at_grid p t0 : create p t0 = at_grid t0 p 1.
Proof. unfold at_grid. replace (grid t0 p 1) with (t0 + p) by (unfold grid; lia). reflexivity. Qed.

Lemma wait_at_grid t0 p k now :
  wait (at_grid t0 p k) now = (at_grid t0 p (S k), Z.max now (grid t0 p k)).
Proof. unfold at_grid. rewrite grid_S. reflexivity. Qed.

(* Bodies, waits and __enter__ in any order and number (several bodies or none
   between two waits, the with-block entered late, entered twice, ...): every
   wait moves the object to the next grid point and returns at
   max(t_call, the grid point it waited for). *)
Lemma grid_run t0 p ops : forall k now, no_release ops = true ->
  fst (final (at_grid t0 p k, now) ops) =
    at_grid t0 p (k + length (wait_log (at_grid t0 p k, now) ops)) /\
  forall i c r, nth_error (wait_log (at_grid t0 p k, now) ops) i = Some (c, r) ->
                r = Z.max c (grid t0 p (k + i)).
Proof.
  induction ops as [|o ops IH]; intros k now Hn.
  - split; [cbn; rewrite Nat.add_0_r; reflexivity | intros [] ? ? [=]].
  - rewrite no_release_cons in Hn. apply andb_prop in Hn as [Ho Hn]. rewrite final_cons.
    destruct o as [b| | | |exc]; cbn [wait_log step enter fst].
    + (* body *) exact (IH _ _ Hn).
    + (* wait *) rewrite wait_at_grid. cbn [snd length].
      destruct (IH (S k) (Z.max now (grid t0 p k)) Hn) as [A B].
      split; [rewrite Nat.add_succ_r; exact A|].
      intros [|i] c r H; cbn [nth_error] in H.
      * injection H as <- <-. rewrite Nat.add_0_r. reflexivity.
      * rewrite Nat.add_succ_r. exact (B i c r H).
    + (* free *) discriminate Ho.
    + (* __enter__ *) exact (IH _ _ Hn).
    + (* __exit__ *) discriminate Ho.
Qed.

(* stated for the object the constructor builds *)
Lemma any_use_on_grid p t0 ops i c r :
  no_release ops = true ->
  nth_error (wait_log (create p t0, t0) ops) i = Some (c, r) ->
  r = Z.max c (grid t0 p (S i)) /\ grid t0 p (S i) <= r /\
  (c <= grid t0 p (S i) -> r = grid t0 p (S i)) /\
  (grid t0 p (S i) <= c -> r = c).
Proof.
  rewrite create_at_grid. intros Hn H. apply (proj2 (grid_run t0 p ops 1 t0 Hn)) in H.
  cbn [Nat.add] in H. lia.
Qed.

Lemma any_use_expiry p t0 ops :
  no_release ops = true ->
  let d := fst (final (create p t0, t0) ops) in
  expiry d = grid t0 p (S (length (wait_log (create p t0, t0) ops))) /\
  alarm d = Some (expiry d) /\ live d = true /\ period d = p /\ released d = 0%nat.
Proof.
  intros Hn. cbv zeta. rewrite create_at_grid, (proj1 (grid_run t0 p ops 1 t0 Hn)). repeat split.
Qed.

(* The object is built at t0, the with-block is entered [setup] microseconds
   later: object, clock and the log of the loop are those of the plain loop
   whose first body is longer by the set-up time -- the grid is still the one
   anchored at t0, not at the instant of entry. *)
Lemma entered_late_is_sched p t0 setup b bs :
  wait_log (create p t0, t0) (entered_late setup (b :: bs)) =
    wait_log (create p t0, t0) (sched ((setup + b) :: bs)) /\
  final (create p t0, t0) (entered_late setup (b :: bs)) =
    final (create p t0, t0) (sched ((setup + b) :: bs)).
Proof.
  unfold entered_late. rewrite !sched_cons. unfold final.
  cbn [wait_log fold_left step enter fst snd]. rewrite Z.add_assoc. split; reflexivity.
Qed.

(* One more iteration whose body leaves a slack of [delta]: lateness [l], which
   was within [L - m*delta] (or zero), becomes [max 0 (l + b - p)], at most
   [l - delta] unless it is zero *)
Lemma slack_step l L b p delta m : 0 <= delta -> b <= p - delta ->
  l <= Z.max 0 (L - m * delta) ->
  Z.max 0 (l + b - p) <= Z.max 0 (L - Z.succ m * delta).
Proof. rewrite Z.mul_succ_l. lia. Qed.

(* the schedules of the property, [wait_log (create p t0, t0) (sched bs)] *)
Section Live.
Variables p t0 : Z.
Variable bs : list Z.
Let log := wait_log (create p t0, t0) (sched bs).

Lemma sched_on_grid i c r :
  nth_error log i = Some (c, r) ->
  r = Z.max c (grid t0 p (S i)) /\ grid t0 p (S i) <= r /\
  (c <= grid t0 p (S i) -> r = grid t0 p (S i)) /\
  (grid t0 p (S i) <= c -> r = c).
Proof. exact (any_use_on_grid p t0 (sched bs) i c r (no_release_sched bs)). Qed.

Lemma late_returns_at_call i c r :
  nth_error log i = Some (c, r) -> grid t0 p (S i) <= c -> r = c.
Proof. intros H. exact (proj2 (proj2 (proj2 (sched_on_grid i c r H)))). Qed.

Lemma lateness_nonneg i rec :
  nth_error log i = Some rec -> 0 <= lateness t0 p i rec.
Proof.
  destruct rec as [c r]. intros H. apply sched_on_grid in H as (_ & H & _).
  unfold lateness. cbn. lia.
Qed.

Lemma lateness_step i rec rec' b :
  nth_error log i = Some rec -> nth_error log (S i) = Some rec' ->
  nth_error bs (S i) = Some b ->
  lateness t0 p (S i) rec' = Z.max 0 (lateness t0 p i rec + b - p).
Proof.
  destruct rec as [c r], rec' as [c' r']. intros H H' Hb.
  pose proof (sched_next_call _ _ _ _ _ _ _ _ H H' Hb) as Hc.
  apply sched_on_grid in H' as [H' _]. unfold lateness. cbn [snd].
  rewrite H', Hc, (grid_S t0 p (S i)). lia.
Qed.

Lemma catch_up_bound delta j recj : 0 <= delta ->
  nth_error log j = Some recj ->
  forall m reck,
  nth_error log (j + m) = Some reck ->
  (forall i b, (j < i <= j + m)%nat -> nth_error bs i = Some b -> b <= p - delta) ->
  lateness t0 p (j + m) reck <= Z.max 0 (lateness t0 p j recj - Z.of_nat m * delta).
Proof.
  intros Hd Hj. induction m as [|m IH]; intros reck Hk Hb.
  - rewrite Nat.add_0_r in Hk. rewrite Hk in Hj. injection Hj as ->.
    rewrite Nat.add_0_r. lia.
  - rewrite Nat.add_succ_r in *.
    (* the record at j+m+1 exists, hence so do the one before it and its body *)
    assert (Hlen : (S (j + m) < length log)%nat)
      by (apply nth_error_Some; rewrite Hk; discriminate).
    destruct (nth_error log (j + m)) as [recm|] eqn:Hm;
      [| apply nth_error_None in Hm; lia].
    unfold log in Hlen. rewrite sched_log_length in Hlen.
    destruct (nth_error bs (S (j + m))) as [b|] eqn:Eb;
      [| apply nth_error_None in Eb; lia].
    rewrite (lateness_step _ _ _ _ Hm Hk Eb), Nat2Z.inj_succ.
    apply (slack_step _ _ _ _ _ _ Hd).
    + exact (Hb (S (j + m)) b ltac:(lia) Eb).
    + exact (IH recm eq_refl (fun i b' Hi => Hb i b' ltac:(lia))).
Qed.

End Live.

(* __exit__ does to the object exactly what free() does, whatever it receives,
   and returns a false value *)
Lemma exit_is_free d exc : exit_ d exc = (free d, false).
Proof. reflexivity. Qed.

Lemma step_release d now o : is_free o = true -> step (d, now) o = (free d, now).
Proof. destruct o; cbn; intros H; try discriminate; reflexivity. Qed.

Lemma wait_live d now : live (fst (wait d now)) = live d.
Proof. unfold wait. destruct (live d) eqn:E; cbn; [reflexivity | exact E]. Qed.

Lemma wait_released d now : released (fst (wait d now)) = released d.
Proof. unfold wait. destruct (live d); reflexivity. Qed.

Lemma free_live d : live (free d) = false.
Proof. unfold free. destruct (live d) eqn:E; [reflexivity | exact E]. Qed.

Lemma wait_not_live d now : live d = false -> wait d now = (d, now).
Proof. intros H. unfold wait. rewrite H. reflexivity. Qed.

Lemma free_not_live d : live d = false -> free d = d.
Proof. intros H. unfold free. rewrite H. reflexivity. Qed.

Lemma step_live s o : live (fst (step s o)) = live (fst s) && negb (is_free o).
Proof.
  destruct s as [d now], o; cbn [step fst is_free negb enter exit_];
    rewrite ?wait_live, ?free_live, ?andb_true_r, ?andb_false_r; reflexivity.
Qed.

Lemma final_live ops s :
  live (fst (final s ops)) = live (fst s) && negb (existsb is_free ops).
Proof. exact (fold_left_flag step (fun s => live (fst s)) is_free step_live ops s). Qed.

(* The clock is moved by bodies and by blocking waits only.  Once the object is
   not live no operation changes it any more, no wait blocks, and the clock
   advances by exactly the sum of the bodies. *)
Fixpoint bodies (ops : list op) : Z :=
  match ops with
  | [] => 0
  | Body b :: r => b + bodies r
  | _ :: r => bodies r
  end.

Lemma step_not_live d now o : live d = false -> step (d, now) o = (d, now + bodies [o]).
Proof.
  intros H. destruct o; cbn [step bodies enter exit_ fst];
    rewrite ?wait_not_live, ?free_not_live by exact H; f_equal; lia.
Qed.

Lemma final_not_live ops : forall d now, live d = false ->
  final (d, now) ops = (d, now + bodies ops).
Proof.
  induction ops as [|o ops IH]; intros d now H; [cbn; f_equal; lia|].
  rewrite final_cons, step_not_live, IH by exact H. f_equal. destruct o; cbn [bodies]; lia.
Qed.

Lemma log_not_live ops : forall d now c r, live d = false ->
  In (c, r) (wait_log (d, now) ops) -> r = c.
Proof.
  induction ops as [|o ops IH]; intros d now c r H Hin; [destruct Hin|].
  cbn [wait_log] in Hin. rewrite step_not_live in Hin by exact H.
  destruct o; try exact (IH _ _ _ _ H Hin).
  destruct Hin as [[= <- <-]|Hin]; [cbn; lia | exact (IH _ _ _ _ H Hin)].
Qed.

(* Between the HAL and the object: as long as the object is live nothing has
   been released; afterwards the HAL holds no alarm and the handle has been
   released once -- whatever the other fields are. *)
Inductive rel_inv : nd -> Prop :=
| rel_live p e a : rel_inv (mkND p e true a 0)
| rel_dead p e : rel_inv (mkND p e false None 1).

(* [b]: has anything released the object *)
Lemma rel_inv_released d (b : bool) : rel_inv d -> live d = negb b ->
  released d = (if b then 1 else 0)%nat /\ (b = true -> alarm d = None).
Proof. intros [] H; destruct b; try discriminate H; split; (reflexivity || discriminate). Qed.

Lemma rel_inv_not_live d : rel_inv d -> live d = false -> alarm d = None /\ released d = 1%nat.
Proof. intros Hi H. destruct (rel_inv_released d true Hi H) as [R A]. exact (conj (A eq_refl) R). Qed.

Lemma create_rel_inv p t0 : rel_inv (create p t0).
Proof. constructor. Qed.

Lemma step_rel_inv s o : rel_inv (fst s) -> rel_inv (fst (step s o)).
Proof. destruct s as [d now]. cbn [fst]. intros []; destruct o; constructor. Qed.

Lemma final_rel_inv ops s : rel_inv (fst s) -> rel_inv (fst (final s ops)).
Proof. exact (fold_left_invariant step (fun s => rel_inv (fst s)) step_rel_inv ops s). Qed.

(* [rel] is any releasing operation: free(), __del__, or __exit__ with any
   exception information; [pre] and [post] are any operations at all *)
Lemma after_release p t0 pre rel post : is_free rel = true ->
  let s := final (create p t0, t0) (pre ++ [rel]) in
  (live (fst s) = false /\ alarm (fst s) = None /\ released (fst s) = 1%nat) /\
  snd s = snd (final (create p t0, t0) pre) /\
  final s post = (fst s, snd s + bodies post) /\
  (forall c r, In (c, r) (wait_log s post) -> r = c).
Proof.
  intros Hrel. cbv zeta.
  pose proof (final_rel_inv (pre ++ [rel]) (create p t0, t0) (create_rel_inv p t0)) as Hi.
  revert Hi. rewrite final_app.
  destruct (final (create p t0, t0) pre) as [d now].
  change (final (d, now) [rel]) with (step (d, now) rel).
  rewrite (step_release d now rel Hrel). cbn [fst snd]. intros Hi.
  split; [exact (conj (free_live d) (rel_inv_not_live _ Hi (free_live d)))|]. split; [reflexivity|].
  split; [apply final_not_live, free_live | intros c r; apply log_not_live, free_live].
Qed.

(* the exception information of every __exit__ of an operation list, in order *)
Fixpoint exit_infos (ops : list op) : list (option exn) :=
  match ops with
  | [] => []
  | Exit e :: r => e :: exit_infos r
  | _ :: r => exit_infos r
  end.

Definition is_raised (e : option exn) : bool :=
  match e with Some _ => true | None => false end.

(* __exit__ never swallows: an exception comes out of the with-statement exactly
   when one went in -- in any state of the object, for any operation list *)
Lemma exit_log_spec ops : forall s, exit_log s ops = map is_raised (exit_infos ops).
Proof.
  induction ops as [|o ops IH]; intros s; [reflexivity|].
  cbn [exit_log]. destruct o; cbn [exit_infos map]; rewrite IH; reflexivity.
Qed.

Lemma exit_log_app ops1 ops2 : forall s,
  exit_log s (ops1 ++ ops2) = exit_log s ops1 ++ exit_log (final s ops1) ops2.
Proof.
  induction ops1 as [|o ops1 IH]; intros s; [reflexivity|].
  rewrite final_cons. cbn [app exit_log]. destruct o; rewrite IH; reflexivity.
Qed.

Lemma enter_is_identity d : enter d = (d, true).
Proof. reflexivity. Qed.

Lemma step_enter s : step s Enter = s.
Proof. destruct s. reflexivity. Qed.

Lemma without_enter_same ops : forall s,
  final s (without_enter ops) = final s ops /\
  wait_log s (without_enter ops) = wait_log s ops /\
  exit_log s (without_enter ops) = exit_log s ops.
Proof.
  induction ops as [|o ops IH]; intros s; [repeat split|].
  destruct (IH (step s o)) as (F & W & X).
  rewrite final_cons, <- F. cbn [wait_log exit_log]. rewrite <- W, <- X.
  destruct o; try (repeat split; reflexivity).
  rewrite step_enter. repeat split.
Qed.

Lemma snaps_enter s ops : snaps s (Enter :: ops) = snap_of s :: snaps s ops.
Proof. cbn [snaps]. rewrite step_enter. reflexivity. Qed.

Lemma enter_log_spec ops : forall s,
  enter_log s ops = map (fun _ => true) (filter is_enter ops).
Proof.
  induction ops as [|o ops IH]; intros s; [reflexivity|].
  cbn [enter_log]. destruct o; cbn [filter is_enter map]; rewrite IH; reflexivity.
Qed.

Lemma crun_cons s o h : crun s (o :: h) = crun (cstep s o) h.
Proof. reflexivity. Qed.

Lemma crun_app s h1 h2 : crun s (h1 ++ h2) = crun (crun s h1) h2.
Proof. apply fold_left_app. Qed.

(* [clog s [o]] is the record, if any, that the step [o] adds to the log *)
Lemma clog_cons s o h : clog s (o :: h) = clog s [o] ++ clog (cstep s o) h.
Proof. cbn [clog]. destruct o as [[]| |], (c_pend s) as [[[|] ?]|]; reflexivity. Qed.

Lemma clog_app h1 : forall s h2, clog s (h1 ++ h2) = clog s h1 ++ clog (crun s h1) h2.
Proof.
  induction h1 as [|o h1 IH]; intros s h2; [reflexivity|].
  cbn [app]. rewrite clog_cons, IH, app_assoc, <- clog_cons. reflexivity.
Qed.

Lemma clog_invariant (I : conc -> Prop) (Q : Z * Z * bool -> Prop) :
  (forall s o, I s -> I (cstep s o)) ->
  (forall s o r, I s -> In r (clog s [o]) -> Q r) ->
  forall h s, I s -> forall r, In r (clog s h) -> Q r.
Proof.
  intros HI HQ h. induction h as [|o h IH]; intros s H r Hin; [destruct Hin|].
  rewrite clog_cons in Hin. apply in_app_or in Hin as [Hin|Hin].
  - exact (HQ s o r H Hin).
  - exact (IH _ (HI s o H) r Hin).
Qed.

(* a step changes the object by [step], by the second half of wait(), or not
   at all; and the wait() in progress stays, ends, or is the one just begun *)
Lemma cstep_obj s o :
  (crel o = false /\ c_obj (cstep s o) = c_obj s) \/
  (exists o', o = Other o' /\ c_obj (cstep s o) = fst (step (c_obj s, c_now s) o')) \/
  (o = WaitEnd /\ exists hd, c_obj (cstep s o) = fst (fst (wait_end (c_obj s) hd (c_now s)))).
Proof.
  destruct o as [[]| |]; unfold cstep; destruct (c_pend s) as [[[|] ?]|]; cbn [c_obj cflag];
    first [ left; split; reflexivity
          | right; left; eexists; split; reflexivity
          | right; right; split; [reflexivity | eexists; reflexivity] ].
Qed.

Lemma cstep_pend s o :
  c_pend (cstep s o) = c_pend s \/ c_pend (cstep s o) = None \/
  c_pend (cstep s o) = Some (wait_begin (c_obj s), c_now s).
Proof.
  destruct s as [d t [[[|] ?]|] out], o as [[]| |]; cbn; auto.
Qed.

Lemma cstep_body d t pd out b :
  cstep (mkC d t pd out) (Other (Body b)) = mkC d (t + b) pd out.
Proof. destruct pd; reflexivity. Qed.

Lemma cstep_enter s : cstep s (Other Enter) = s.
Proof. destruct s as [d t [] out]; reflexivity. Qed.

Lemma cstep_release d t pd out o : is_free o = true ->
  cstep (mkC d t pd out) (Other o) = mkC (free d) t pd out.
Proof. destruct o; try discriminate; intros _; destruct pd; reflexivity. Qed.

Lemma clog1_silent s o : cquiet o || cinstant o = true -> clog s [o] = [].
Proof.
  destruct o as [[]| |]; try discriminate; intros _; cbn [clog];
    destruct (c_pend s) as [[[|] ?]|]; reflexivity.
Qed.

(* the steps that add a record to the log: a whole wait() while none is in progress, and a
   second half -- of a wait() inside the HAL call, or of one that had returned at once *)
Lemma clog1_cases s o r : In r (clog s [o]) ->
  (o = Other Wait /\ c_pend s = None /\ r = (c_now s, snd (wait (c_obj s) (c_now s)), false)) \/
  (exists hd c, o = WaitEnd /\ c_pend s = Some (Some hd, c) /\
     r = (c, snd (fst (wait_end (c_obj s) hd (c_now s))), snd (wait_end (c_obj s) hd (c_now s)))) \/
  (exists c, o = WaitEnd /\ c_pend s = Some (None, c) /\ r = (c, c, false)).
Proof.
  cbn [clog]. unfold cstep.
  destruct o as [[]| |], (c_pend s) as [[[hd|] c]|]; intros Hin; try contradiction Hin;
    destruct Hin as [<-|[]].
  - left. repeat split.
  - right. left. exists hd, c. repeat split.
  - right. right. exists c. repeat split.
Qed.

Lemma wait_end_live d h now : live (fst (fst (wait_end d h now))) = live d.
Proof. unfold wait_end. destruct h; reflexivity. Qed.

Lemma wait_end_released d h now : released (fst (fst (wait_end d h now))) = released d.
Proof. unfold wait_end. destruct h; reflexivity. Qed.

Lemma wait_end_rel_inv d h now : rel_inv d -> rel_inv (fst (fst (wait_end d h now))).
Proof. intros []; destruct h; constructor. Qed.

Lemma cstep_live s o :
  live (c_obj (cstep s o)) = live (c_obj s) && negb (crel o).
Proof.
  destruct (cstep_obj s o) as [[Hr ->]|[(o' & -> & ->)|(-> & hd & ->)]].
  - rewrite Hr. symmetry. apply andb_true_r.
  - apply (step_live (c_obj s, c_now s)).
  - rewrite wait_end_live. symmetry. apply andb_true_r.
Qed.

Lemma crun_live h s :
  live (c_obj (crun s h)) = live (c_obj s) && negb (existsb crel h).
Proof. exact (fold_left_flag cstep (fun s => live (c_obj s)) crel cstep_live h s). Qed.

Lemma cstep_rel_inv s o : rel_inv (c_obj s) -> rel_inv (c_obj (cstep s o)).
Proof.
  intros H. destruct (cstep_obj s o) as [[_ ->]|[(o' & _ & ->)|(_ & hd & ->)]].
  - exact H.
  - apply (step_rel_inv (c_obj s, c_now s)), H.
  - apply wait_end_rel_inv, H.
Qed.

Lemma crun_rel_inv h s : rel_inv (c_obj s) -> rel_inv (c_obj (crun s h)).
Proof. exact (fold_left_invariant cstep (fun s => rel_inv (c_obj s)) cstep_rel_inv h s). Qed.

(* the local variable `handle` of a wait() in progress is never None: its
   first half returned at once in that case *)
Definition pend_ok (s : conc) : Prop :=
  match c_pend s with
  | Some (Some false, _) => False
  | _ => True
  end.

Lemma cstep_pend_ok s o : pend_ok s -> pend_ok (cstep s o).
Proof.
  unfold pend_ok. intros H. destruct (cstep_pend s o) as [->|[->| ->]]; [exact H | exact I |].
  unfold wait_begin. destruct (live (c_obj s)); exact I.
Qed.

Lemma clog1_returns s o r : pend_ok s -> In r (clog s [o]) -> snd r = false.
Proof.
  intros Hp Hin.
  destruct (clog1_cases s o r Hin) as [(_ & _ & ->)|[(hd & c & _ & E & ->)|(c & _ & _ & ->)]].
  - (* a whole wait() *) reflexivity.
  - (* second half with a handle: the handle is not None *)
    unfold pend_ok in Hp. rewrite E in Hp. destruct hd; [reflexivity | contradiction Hp].
  - (* second half of a wait() that had returned at once *) reflexivity.
Qed.

Lemma conc_never_raises p t0 h c t e :
  In (c, t, e) (clog (cinit (create p t0) t0) h) -> e = false.
Proof.
  exact (clog_invariant pend_ok _ cstep_pend_ok clog1_returns h (cinit (create p t0) t0) I (c, t, e)).
Qed.

(* a released object with no HAL call in progress *)
Definition cdead (s : conc) : Prop :=
  live (c_obj s) = false /\
  match c_pend s with Some (Some _, _) => False | _ => True end.

Lemma cstep_cdead s o : cdead s -> cdead (cstep s o).
Proof.
  intros [Hl Hp]. split; [rewrite cstep_live, Hl; reflexivity|].
  destruct (cstep_pend s o) as [->|[->| ->]]; [exact Hp | exact I |].
  unfold wait_begin. rewrite Hl. exact I.
Qed.

Lemma clog1_cdead s o r : cdead s -> In r (clog s [o]) ->
  snd (fst r) = fst (fst r) /\ snd r = false.
Proof.
  intros [Hl Hp] Hin.
  destruct (clog1_cases s o r Hin) as [(_ & _ & ->)|[(hd & c & _ & E & ->)|(c & _ & _ & ->)]].
  - (* a whole wait() on an object that is not live *)
    cbn [fst snd]. rewrite (wait_not_live _ _ Hl). split; reflexivity.
  - (* no HAL call is in progress *) rewrite E in Hp. contradiction Hp.
  - (* second half of a wait() that had returned at once *) split; reflexivity.
Qed.

Lemma cdead_forever s post : rel_inv (c_obj s) -> cdead s ->
  (forall c t e, In (c, t, e) (clog s post) -> t = c /\ e = false) /\
  (live (c_obj (crun s post)) = false /\ alarm (c_obj (crun s post)) = None /\
   released (c_obj (crun s post)) = 1%nat).
Proof.
  intros Hi Hd. split.
  - intros c t e. exact (clog_invariant cdead _ cstep_cdead clog1_cdead post s Hd (c, t, e)).
  - destruct (fold_left_invariant cstep cdead cstep_cdead post s Hd) as [L _].
    exact (conj L (rel_inv_not_live _ (crun_rel_inv post s Hi) L)).
Qed.

Lemma crun_quiet mid : forall d t pd out, forallb cquiet mid = true ->
  crun (mkC d t pd out) mid = mkC d (t + cbodies mid) pd out /\
  clog (mkC d t pd out) mid = [].
Proof.
  induction mid as [|o mid IH]; intros d t pd out H.
  - cbn. rewrite Z.add_0_r. split; reflexivity.
  - cbn [forallb] in H. apply andb_prop in H as [Ho H].
    rewrite crun_cons, clog_cons, clog1_silent by (rewrite Ho; reflexivity).
    destruct o as [[b| | | |e]| |]; try discriminate Ho.
    + rewrite cstep_body. cbn [cbodies]. rewrite Z.add_assoc. exact (IH d (t + b) pd out H).
    + rewrite cstep_enter. exact (IH d t pd out H).
Qed.

Lemma crun_instant_dead zs : forall d t pd out, live d = false -> forallb cinstant zs = true ->
  crun (mkC d t pd out) zs = mkC d t pd out /\ clog (mkC d t pd out) zs = [].
Proof.
  induction zs as [|o zs IH]; intros d t pd out Hl H; [split; reflexivity|].
  cbn [forallb] in H. apply andb_prop in H as [Ho H].
  rewrite crun_cons, clog_cons, clog1_silent by (rewrite Ho; apply orb_true_r).
  destruct o as [[| | | |e]| |]; try discriminate Ho.
  - rewrite cstep_release, (free_not_live d Hl) by reflexivity. exact (IH d t pd out Hl H).
  - rewrite cstep_enter. exact (IH d t pd out Hl H).
  - rewrite cstep_release, (free_not_live d Hl) by reflexivity. exact (IH d t pd out Hl H).
Qed.

(* The loop thread has called wait() at [t] on the live object; while it is
   inside the HAL call the other thread lets time pass ([mid]), releases the
   object ([rel]), maybe repeats that or enters again ([zs]); the HAL call
   returns.  The wait() is left at the instant of the release, whatever the
   alarm [a] was, and its second half has still advanced the expiry. *)
Lemma release_ends_wait q e a t out mid rel zs :
  forallb cquiet mid = true -> is_free rel = true -> forallb cinstant zs = true ->
  let s := mkC (mkND q e true a 0) t None out in
  let h := [WaitBegin] ++ mid ++ [Other rel] ++ zs ++ [WaitEnd] in
  crun s h = mkC (mkND q (e + q) false None 1) (t + cbodies mid) None out /\
  clog s h = [(t, t + cbodies mid, false)].
Proof.
  intros Hmid Hrel Hzs. cbv zeta. cbn [app]. rewrite crun_cons, clog_cons.
  cbn [cstep clog c_pend c_obj c_now c_outside wait_begin live app].
  rewrite crun_app, clog_app.
  destruct (crun_quiet mid (mkND q e true a 0) t (Some (Some true, t)) out Hmid) as [-> ->].
  rewrite crun_cons, clog_cons, (cstep_release _ _ _ _ _ Hrel), clog1_silent
    by (destruct rel; try discriminate Hrel; reflexivity).
  cbn [app free live period expiry released].
  rewrite crun_app, clog_app.
  destruct (crun_instant_dead zs (mkND q e false None 1) (t + cbodies mid) (Some (Some true, t)) out
                              eq_refl Hzs) as [-> ->].
  split; reflexivity.
Qed.

(* [pre] is any history that leaves the object live and no wait() in progress,
   [post] any history at all *)
Lemma interrupted_wait p t0 pre mid rel zs post :
  let s0 := cinit (create p t0) t0 in
  let s1 := crun s0 pre in
  let h := pre ++ [WaitBegin] ++ mid ++ [Other rel] ++ zs ++ [WaitEnd] in
  let s := crun s0 h in
  c_pend s1 = None -> live (c_obj s1) = true ->
  forallb cquiet mid = true -> is_free rel = true -> forallb cinstant zs = true ->
  clog s0 h = clog s0 pre ++ [(c_now s1, c_now s1 + cbodies mid, false)] /\
  c_now s = c_now s1 + cbodies mid /\
  (live (c_obj s) = false /\ alarm (c_obj s) = None /\ released (c_obj s) = 1%nat) /\
  c_pend s = None /\ c_outside s = c_outside s1 /\
  (forall c t e, In (c, t, e) (clog s post) -> t = c /\ e = false) /\
  (live (c_obj (crun s post)) = false /\ alarm (c_obj (crun s post)) = None /\
   released (c_obj (crun s post)) = 1%nat).
Proof.
  cbv zeta. intros Hp Hl Hmid Hrel Hzs.
  pose proof (crun_rel_inv pre (cinit (create p t0) t0) (create_rel_inv p t0)) as Hi. revert Hi.
  rewrite crun_app, clog_app.
  destruct (crun (cinit (create p t0) t0) pre) as [d t pd out].
  cbn [c_pend c_obj c_now c_outside] in *. subst pd.
  intros Hi. destruct Hi as [q e a|q e]; [clear Hl | discriminate Hl].
  destruct (release_ends_wait q e a t out mid rel zs Hmid Hrel Hzs) as [-> ->].
  (* all but the last two conjuncts are read off the state *)
  do 5 (split; [repeat split|]).
  apply cdead_forever; [constructor | split; [reflexivity | exact I]].
Qed.

(* the halves of wait() compose to wait() when nothing lies between them *)
Lemma wait_is_halves d now : rel_inv d ->
  match wait_begin d with
  | Some h => wait_end d h now = (wait d now, false)
  | None => wait d now = (d, now)
  end.
Proof. intros []; reflexivity. Qed.

(* the two-thread model extends the sequential one: a wait() whose halves run
   with nothing in between is wait(), so a sequential use, seen as a two-thread
   history, ends in the same object at the same time with the same log *)
Lemma conc_extends_seq ops : forall d now out, rel_inv d ->
  crun (mkC d now None out) (seq_cops ops) =
    mkC (fst (final (d, now) ops)) (snd (final (d, now) ops)) None out /\
  clog (mkC d now None out) (seq_cops ops) =
    map (fun r : Z * Z => (fst r, snd r, false)) (wait_log (d, now) ops).
Proof.
  induction ops as [|o ops IH]; intros d now out Hi; [split; reflexivity|].
  pose proof (step_rel_inv (d, now) o Hi) as Hi'.
  rewrite final_cons. cbn [wait_log].
  destruct (step (d, now) o) as [d' now'] eqn:E. destruct (IH d' now' out Hi') as [A B].
  destruct o as [b| | | |exc]; cbn [seq_cops flat_map app]; fold (seq_cops ops); rewrite crun_cons.
  - (* body *) rewrite clog_cons. cbn [cstep clog c_pend c_obj c_now c_outside app]. rewrite E.
    exact (conj A B).
  - (* wait(): its two halves *)
    cbn [step] in E. pose proof (wait_is_halves d now Hi) as W. rewrite E in W.
    rewrite crun_cons. cbn [cstep clog c_pend c_obj c_now c_outside].
    destruct (wait_begin d) as [hd|]; cbn [cstep clog c_pend c_obj c_now c_outside].
    + (* the object is live *) rewrite W. cbn [fst snd map]. rewrite B. split; [exact A | reflexivity].
    + (* it is not: wait() returns at once *) injection W as -> ->. cbn [fst snd map]. rewrite B.
      split; [exact A | reflexivity].
  - (* free *) rewrite clog_cons. cbn [cstep clog c_pend c_obj c_now c_outside app]. rewrite E.
    exact (conj A B).
  - (* __enter__ *) rewrite clog_cons. cbn [cstep clog c_pend c_obj c_now c_outside app]. rewrite E.
    exact (conj A B).
  - (* __exit__ *) rewrite clog_cons. cbn [cstep clog c_pend c_obj c_now c_outside app]. rewrite E.
    exact (conj A B).
Qed.

(* while nobody releases the object, what the other thread does during a
   wait() does not disturb the grid: the history amounts to the sequential use
   [lin h].  [w] is the call time of the wait() in progress, if any. *)
Lemma conc_no_release_is_seq h : forall p e a now (w : option Z) out,
  let d := mkND p e true a 0 in
  let s := mkC d now (match w with Some c => Some (Some true, c) | None => None end) out in
  cwf (match w with Some _ => true | None => false end) h = true -> existsb crel h = false ->
  (c_obj (crun s h), c_now (crun s h)) = final (d, now) (lin h) /\
  map (fun r : Z * Z * bool => snd (fst r)) (clog s h) = map snd (wait_log (d, now) (lin h)).
Proof.
  induction h as [|o h IH]; intros p e a now w out d s Hw Hn; [split; reflexivity|].
  cbn [existsb] in Hn. apply orb_false_elim in Hn as [Ho Hn].
  subst d s. rewrite crun_cons, clog_cons.
  destruct o as [[b| | | |exc]| |]; cbn [cwf] in Hw.
  - (* the other thread's time *)
    rewrite cstep_body, clog1_silent by reflexivity. exact (IH p e a (now + b) w out Hw Hn).
  - (* a whole wait() *)
    destruct w; [discriminate Hw|].
    destruct (IH p (e + p) (Some (e + p)) (hal_wait a now) None out Hw Hn) as [A B].
    split; [exact A | exact (f_equal (cons (hal_wait a now)) B)].
  - (* free() releases *) discriminate Ho.
  - (* __enter__ by the other thread *)
    rewrite cstep_enter, clog1_silent by reflexivity. exact (IH p e a now w out Hw Hn).
  - (* __exit__ releases *) discriminate Ho.
  - (* first half *)
    destruct w; [discriminate Hw|]. exact (IH p e a now (Some now) out Hw Hn).
  - (* second half *)
    destruct w as [c|]; [|discriminate Hw].
    destruct (IH p (e + p) (Some (e + p)) (hal_wait a now) None out Hw Hn) as [A B].
    split; [exact A | exact (f_equal (cons (hal_wait a now)) B)].
Qed.

Lemma no_release_lin h : existsb crel h = false -> no_release (lin h) = true.
Proof.
  induction h as [|o h IH]; intros H; [reflexivity|].
  cbn [existsb] in H. apply orb_false_elim in H as [Ho H].
  destruct o as [o'| |]; cbn [lin flat_map app]; fold (lin h); rewrite ?no_release_cons;
    cbn [crel] in Ho; rewrite ?Ho; apply IH, H.
Qed.

Lemma conc_lin p t0 h : cwf false h = true -> existsb crel h = false ->
  let s0 := cinit (create p t0) t0 in
  (c_obj (crun s0 h), c_now (crun s0 h)) = final (create p t0, t0) (lin h) /\
  map (fun r : Z * Z * bool => snd (fst r)) (clog s0 h) =
    map snd (wait_log (create p t0, t0) (lin h)).
Proof. exact (conc_no_release_is_seq h p (t0 + p) (Some (t0 + p)) t0 None false). Qed.

(* stated for the object the constructor builds; [c'] is the instant at which the
   second half of the wait() runs (for a whole wait(): at which it is called) *)
Lemma conc_any_use_on_grid p t0 h i c t e :
  cwf false h = true -> existsb crel h = false ->
  nth_error (clog (cinit (create p t0) t0) h) i = Some (c, t, e) ->
  e = false /\ grid t0 p (S i) <= t /\
  exists c', nth_error (wait_log (create p t0, t0) (lin h)) i = Some (c', t) /\
             t = Z.max c' (grid t0 p (S i)).
Proof.
  intros Hw Hn H.
  split; [exact (conc_never_raises p t0 h c t e (nth_error_In _ _ H))|].
  destruct (conc_lin p t0 h Hw Hn) as [_ C].
  apply (f_equal (fun l => nth_error l i)) in C. rewrite !nth_error_map, H in C.
  destruct (nth_error (wait_log _ (lin h)) i) as [[c' t']|] eqn:E; [|discriminate C].
  injection C as ->.
  destruct (any_use_on_grid p t0 (lin h) i c' t' (no_release_lin h Hn) E) as (A & B & _).
  split; [exact B|]. exists c'. split; [reflexivity | exact A].
Qed.

Lemma conc_any_use_expiry p t0 h :
  cwf false h = true -> existsb crel h = false ->
  let s := crun (cinit (create p t0) t0) h in
  expiry (c_obj s) = grid t0 p (S (length (clog (cinit (create p t0) t0) h))) /\
  alarm (c_obj s) = Some (expiry (c_obj s)) /\ live (c_obj s) = true /\
  period (c_obj s) = p /\ released (c_obj s) = 0%nat.
Proof.
  intros Hw Hn. cbv zeta.
  destruct (conc_lin p t0 h Hw Hn) as [A C].
  apply (f_equal fst) in A. apply (f_equal (@length Z)) in C. rewrite !map_length in C.
  cbn [fst] in A. rewrite A, C. apply (any_use_expiry p t0 (lin h) (no_release_lin h Hn)).
Qed.
