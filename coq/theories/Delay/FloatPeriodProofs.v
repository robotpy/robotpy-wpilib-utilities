(* round(delay_period * 1e6) is exact for every period of a whole number of microseconds below 2^21 (2.09 s), in
   particular from 1 ms to 2 s: a finite sweep over the kernel's primitive floats, lifted to the quantified statement.

   The doubles are visited as a trie over the binary representation of z, top bit first: a node holds the machine
   integer of its prefix and a child extends it by one shift, which is the recursion of Uint63.of_pos_rec read from
   the other end ([tree_spec]).  Evaluating the nested loop [outer] of FloatPeriod.v, which states the same fact most
   directly, converts every z from Z to a machine integer by 63 fuelled steps; in the lazy machine of the independent
   checker that is far dearer than the float arithmetic.  So the pointwise theorem comes from the trie, and the loop
   ([sweep]) from the pointwise theorem. *)
From Coq Require Import ZArith Lia Bool List PrimFloat Uint63.
From RV Require Import Delay.FloatPeriod.
Open Scope Z_scope.

Definition okf (x : float) : bool := PrimFloat.eqb (us_of_period (x / 1000000)%float) x.

(* Stated with the definitions unfolded by hand: left to itself the unifier unfolds of_pos_rec first and does not return. *)
Lemma okz_pos q : okz (Zpos q) = okf (of_uint63 (of_pos_rec 63 q)).
Proof. unfold okz, okf, period_of_us, fz, Uint63.of_Z, of_pos, size. reflexivity. Qed.

Fixpoint tree (d : nat) (i : int) : bool :=
  match d with
  | O => okf (of_uint63 i)
  | S d => tree d (i << 1)%uint63 && tree d (i << 1 lor 1)%uint63
  end.

(* q is p followed by d further, less significant, bits *)
Inductive ext : nat -> positive -> positive -> Prop :=
| ext_O p : ext 0 p p
| ext_0 d p q : ext d (xO p) q -> ext (S d) p q
| ext_1 d p q : ext d (xI p) q -> ext (S d) p q.

Lemma tree_spec d : forall n p q, tree d (of_pos_rec n p) = true -> ext d p q ->
  okf (of_uint63 (of_pos_rec (d + n) q)) = true.
Proof.
  induction d as [|d IH]; intros n p q H E; inversion E; subst; [exact H| |];
    cbn [tree] in H; apply andb_prop in H; rewrite Nat.add_succ_comm.
  - apply (IH (S n) (xO p)); [apply H | assumption].
  - apply (IH (S n) (xI p)); [apply H | assumption].
Qed.

Lemma ext_snoc (b : bool) d p q : ext d p q -> ext (S d) p (if b then xI q else xO q).
Proof.
  induction 1 as [p|d p q _ IH|d p q _ IH]; [|apply ext_0, IH|apply ext_1, IH].
  destruct b; [apply ext_1|apply ext_0]; apply ext_O.
Qed.

Lemma ext_top q : exists d, ext d 1 q /\ S d = Pos.size_nat q.
Proof.
  induction q as [q (d & E & Hd)|q (d & E & Hd)|]; [| |exists 0%nat; split; [apply ext_O|reflexivity]];
    exists (S d); (split; [|cbn [Pos.size_nat]; rewrite Hd; reflexivity]).
  - exact (ext_snoc true d 1 q E).
  - exact (ext_snoc false d 1 q E).
Qed.

Lemma size_nat_le q : forall n, Zpos q < 2 ^ Z.of_nat n -> (Pos.size_nat q <= n)%nat.
Proof.
  induction q as [q IH|q IH|]; intros [|n] H; cbn [Pos.size_nat]; try (cbn in H; lia);
    rewrite Nat2Z.inj_succ, Z.pow_succ_r in H by lia; try (apply le_n_S, IH); lia.
Qed.

(* every double with 1 to 21 significant bits: the tries of depth 0 to 20 below the leading 1 *)
Lemma trees : forallb (fun d => tree d 1) (seq 0 21) = true.
Proof. vm_compute. reflexivity. Qed.

Theorem round_is_exact_below_2p21 : forall z, 0 < z < 2 ^ 21 -> okz z = true.
Proof.
  intros [|q|q] Hz; try lia.
  destruct (ext_top q) as (d & E & Hd).
  pose proof (size_nat_le q 21 (proj2 Hz)) as Hs.
  pose proof trees as T. rewrite forallb_forall in T.
  assert (Hin : In d (seq 0 21)) by (apply in_seq; lia).
  (* of_pos starts with fuel 63 = Uint63.size; the trie of depth d below the leading 1 is entered with what is left of
     it, and of_pos_rec (S _) 1 is 1 *)
  apply T in Hin. apply (tree_spec d (S (62 - d)) 1 q) in Hin; [|exact E].
  replace (d + S (62 - d))%nat with 63%nat in Hin by lia. rewrite okz_pos. exact Hin.
Qed.

Theorem round_is_exact : forall z, 1000 <= z < 2001000 -> okz z = true.
Proof. intros z Hz. apply round_is_exact_below_2p21. lia. Qed.

Lemma inner_intro n : forall z, (forall x, z <= x < z + Z.of_nat n -> okz x = true) -> inner n z = true.
Proof.
  induction n as [|n IH]; intros z H; [reflexivity|].
  cbn [inner]. rewrite H, IH; [reflexivity | intros; apply H; lia | lia].
Qed.

Lemma outer_intro n : forall z, (forall x, z <= x < z + 1000 * Z.of_nat n -> okz x = true) -> outer n z = true.
Proof.
  induction n as [|n IH]; intros z H; [reflexivity|].
  cbn [outer]. rewrite inner_intro, IH; [reflexivity | intros; apply H; lia | intros; apply H; lia].
Qed.

Lemma sweep : outer 2000 1000 = true.
Proof. apply outer_intro. intros x Hx. apply round_is_exact. lia. Qed.

(* the pre-fix conversion int(delay_period * 1e6) loses a microsecond (D8: NotifierDelay(0.001001) waited 1000 us) *)
Lemma truncation_loses_a_microsecond : okt 1001 = false /\ okz 1001 = true.
Proof. vm_compute. split; reflexivity. Qed.
