(* Proofs about the injection model (Inject/Model.v), for every robot
   definition: any number of components and autonomous modes, any hints.

   First what knows nothing of injection (association lists, Forall2, the loop
   [traverse]), then the definitions the statements of Properties/C08.v are
   written with.

   The loops of inject.py and the loops of _create_components over the
   injection targets are one traversal that stops at the first error
   ([traverse]); what they do to one element is [typed] / [lookup] (one
   annotation, one request) and [setup_vars] (one target).  The construction
   loop threads the growing dict through and gets an induction of its own
   ([construct_spec]).  [startup_eq] puts the pipeline together once:
   construction, then every target of [targets r] -- component or autonomous
   mode alike -- injected from [all_injectables r]; [startup_ok] says what a
   successful start-up did: each component was constructed from the dict as it
   was at that moment ([ctor_chain]), each target got its [setup_vars];
   [startup_err] says what a failed one ran into.  On these stand, in this
   order: the trace; what attributes read and constructors were passed
   ([attr_exact], [ctor_exact]); failure ([fail_iff], [error_class]);
   declaration order; the robot's own attributes ([robot_injectables_exact])
   and what their names decide ([excluded_iff_logger], [collect_rename]); the
   driver station; attributes that already have a value; constructor defaults.
   The theorems about attributes are stated for a target; Properties/C08.v
   instantiates them with [comp_in_targets] and [mode_in_targets].  Two such
   instances, [robot_attr_by_name_delivered_comp] and [mode_fault_fails_in],
   stand in this file because Inject/Model.v cites them.

   Two definitions are deliberately NOT the code: [startup_tolerant] (each
   injection inside try/except onException) and, last in the file,
   [create_component_lenient] (a declared default used when injection fails).
   Each is proved equal to the code where the difference cannot show
   ([tolerant_without_fms], [lenient_without_defaults]); Properties/C08.v
   evaluates them on examples where it does, to show that its statements
   exclude something. *)
From Coq Require Import List String Ascii Bool Arith Permutation.
From RV Require Import Inject.Model.
Import ListNotations.
Open Scope string_scope.
Open Scope list_scope.

Lemma assoc_In {A} n (l : list (name * A)) v : assoc n l = Some v -> In (n, v) l.
Proof.
  induction l as [|[k w] l IH]; simpl; [discriminate|].
  destruct (String.eqb k n) eqn:E.
  - intros H; inversion H; subst. apply String.eqb_eq in E. subst. now left.
  - intros H. right. now apply IH.
Qed.

Lemma assoc_None {A} n (l : list (name * A)) : assoc n l = None <-> ~ In n (map fst l).
Proof.
  induction l as [|[k w] l IH]; simpl.
  - split; [intros _ []|reflexivity].
  - destruct (String.eqb k n) eqn:E.
    + apply String.eqb_eq in E. split; [discriminate|]. intros H. exfalso. apply H. now left.
    + apply String.eqb_neq in E. rewrite IH. split.
      * intros H [H1|H1]; [now apply E|now apply H].
      * intros H H1. apply H. now right.
Qed.

Lemma In_assoc_some {A} n (l : list (name * A)) : In n (map fst l) -> exists v, assoc n l = Some v.
Proof.
  intros H. destruct (assoc n l) eqn:E; [eauto|]. apply assoc_None in E. contradiction.
Qed.

Lemma assoc_NoDup_In {A} n (v : A) l : NoDup (map fst l) -> In (n, v) l -> assoc n l = Some v.
Proof.
  induction l as [|[k w] l IH]; simpl; [intros _ []|].
  intros ND [H|H].
  - inversion H; subst. now rewrite String.eqb_refl.
  - inversion ND as [|? ? Hn ND']; subst.
    destruct (String.eqb k n) eqn:E.
    + apply String.eqb_eq in E. subst. exfalso. apply Hn.
      change n with (fst (n, v)). now apply in_map.
    + now apply IH.
Qed.

Lemma assoc_perm {A} n (l l' : list (name * A)) :
  Permutation l l' -> NoDup (map fst l) -> assoc n l = assoc n l'.
Proof.
  induction 1 as [|[k v] l l' HP IH|[k1 v1] [k2 v2] l|l l' l'' HP1 IH1 HP2 IH2]; intros ND.
  - reflexivity.
  - simpl. inversion ND; subst. now rewrite IH.
  - simpl. simpl in ND. inversion ND as [|? ? Hn ND']; subst.
    destruct (String.eqb k1 n) eqn:E1, (String.eqb k2 n) eqn:E2; try reflexivity.
    apply String.eqb_eq in E1, E2. subst. exfalso. apply Hn. now left.
  - rewrite IH1 by assumption. apply IH2.
    eapply Permutation_NoDup; [|exact ND]. now apply Permutation_map.
Qed.

Lemma Forall2_impl {A B} (P Q : A -> B -> Prop) l1 l2 :
  (forall a b, P a b -> Q a b) -> Forall2 P l1 l2 -> Forall2 Q l1 l2.
Proof. intros H F. induction F; constructor; auto. Qed.

Lemma Forall2_In_l {A B} (P : A -> B -> Prop) l1 l2 a :
  Forall2 P l1 l2 -> In a l1 -> exists b, In b l2 /\ P a b.
Proof.
  induction 1; intros HI; [destruct HI|].
  destruct HI as [->|HI]; [eexists; split; [now left|eassumption]|].
  destruct (IHForall2 HI) as (b & ? & ?). exists b. split; [now right|assumption].
Qed.

Lemma Forall2_In_r {A B} (P : A -> B -> Prop) l1 l2 b :
  Forall2 P l1 l2 -> In b l2 -> exists a, In a l1 /\ P a b.
Proof.
  induction 1; intros HI; [destruct HI|].
  destruct HI as [->|HI]; [eexists; split; [now left|eassumption]|].
  destruct (IHForall2 HI) as (a & ? & ?). exists a. split; [now right|assumption].
Qed.

Lemma Forall2_map_eq {A B C} (f : A -> C) (g : B -> C) l1 l2 :
  Forall2 (fun a b => f a = g b) l1 l2 -> map f l1 = map g l2.
Proof. induction 1; simpl; congruence. Qed.

Lemma NoDup_map_inj {A B} (f : A -> B) l a b :
  NoDup (map f l) -> In a l -> In b l -> f a = f b -> a = b.
Proof.
  induction l as [|x l IH]; simpl; [intros _ []|].
  intros ND Ha Hb E. inversion ND as [|? ? Hn ND']; subst.
  destruct Ha as [->|Ha], Hb as [->|Hb]; auto.
  - exfalso. apply Hn. rewrite E. now apply in_map.
  - exfalso. apply Hn. rewrite <- E. now apply in_map.
Qed.

(* distinctness of a concrete list (names, target references), by evaluation *)
Fixpoint nodupb {A} (eqb : A -> A -> bool) (l : list A) : bool :=
  match l with
  | [] => true
  | x :: rest => negb (existsb (eqb x) rest) && nodupb eqb rest
  end.

Lemma NoDup_by_computation {A} (eqb : A -> A -> bool) l :
  (forall a, eqb a a = true) -> nodupb eqb l = true -> NoDup l.
Proof.
  intros R. induction l as [|x l IH]; simpl; intros H; [constructor|].
  apply andb_true_iff in H. destruct H as [Hx Hl]. constructor; [|now apply IH].
  intros HI. apply negb_true_iff in Hx.
  rewrite (proj2 (existsb_exists _ _)) in Hx; [discriminate|]. now exists x.
Qed.

Lemma tref_eqb_eq a b : tref_eqb a b = true -> a = b.
Proof.
  destruct a, b; simpl; try discriminate; intros H; apply String.eqb_eq in H; now subst.
Qed.

Lemma tref_eqb_refl a : tref_eqb a a = true.
Proof. destruct a; simpl; apply String.eqb_refl. Qed.

Lemma if_orb {A} (a b : bool) (x y : A) :
  (if a then x else if b then x else y) = if a || b then x else y.
Proof. now destruct a. Qed.

Lemma mem_In n l : mem n l = true <-> In n l.
Proof.
  unfold mem. rewrite existsb_exists. split.
  - intros (x & Hx & E). apply String.eqb_eq in E. now subst.
  - intros H. exists n. split; [assumption|apply String.eqb_refl].
Qed.

(* ---- the one loop: collect the results, stop at the first error ---- *)

Fixpoint traverse {A B} (f : A -> res B) (l : list A) : res (list B) :=
  match l with
  | [] => Ok []
  | a :: rest =>
    match f a with
    | Err e => Err e
    | Ok b => match traverse f rest with Ok bs => Ok (b :: bs) | Err e => Err e end
    end
  end.

Definition bind {A B} (x : res A) (f : A -> res B) : res B :=
  match x with Ok a => f a | Err e => Err e end.

Lemma traverse_ok {A B} (f : A -> res B) l bs :
  traverse f l = Ok bs -> Forall2 (fun a b => f a = Ok b) l bs.
Proof.
  revert bs. induction l as [|a l IH]; simpl; intros bs H.
  - inversion H. constructor.
  - destruct (f a) as [b|] eqn:E; [|discriminate].
    destruct (traverse f l) as [bs'|]; [|discriminate].
    inversion H; subst. constructor; auto.
Qed.

Lemma traverse_err {A B} (f : A -> res B) l e :
  traverse f l = Err e -> exists a, In a l /\ f a = Err e.
Proof.
  induction l as [|a l IH]; simpl; intros H; [discriminate|].
  destruct (f a) as [b|e'] eqn:E.
  - destruct (traverse f l) as [bs|e'']; [discriminate|]. inversion H; subst.
    destruct (IH eq_refl) as (a' & ? & ?). exists a'. split; [now right|assumption].
  - inversion H; subst. exists a. split; [now left|assumption].
Qed.

Lemma traverse_total {A B} (f : A -> res B) l :
  (forall a, In a l -> exists b, f a = Ok b) -> exists bs, traverse f l = Ok bs.
Proof.
  induction l as [|a l IH]; simpl; intros H; [eauto|].
  destruct (H a (or_introl eq_refl)) as [b ->].
  destruct IH as [bs ->]; [intros; apply H; now right|]. eauto.
Qed.

Lemma traverse_ext {A B} (f g : A -> res B) l :
  (forall a, f a = g a) -> traverse f l = traverse g l.
Proof. intros E. induction l as [|a l IH]; simpl; [reflexivity|]. now rewrite E, IH. Qed.

(* A loop over the results of a loop (get_requests, then find_injections)
   succeeds exactly when every element passes both steps; its error is the
   error of some element -- of which one, the two-pass order decides. *)
Lemma traverse2_ok {A B C} (f : A -> res B) (g : B -> res C) l cs :
  bind (traverse f l) (traverse g) = Ok cs -> Forall2 (fun a c => bind (f a) g = Ok c) l cs.
Proof.
  unfold bind at 1. destruct (traverse f l) as [bs|] eqn:E; [|discriminate]. intros H.
  apply traverse_ok in E. apply traverse_ok in H. revert cs H.
  induction E as [|a b l bs Ea E IH]; intros cs H; inversion H; subst; constructor; auto.
  unfold bind. now rewrite Ea.
Qed.

Lemma traverse2_err {A B C} (f : A -> res B) (g : B -> res C) l e :
  bind (traverse f l) (traverse g) = Err e -> exists a, In a l /\ bind (f a) g = Err e.
Proof.
  unfold bind at 1. destruct (traverse f l) as [bs|e'] eqn:E; intros H.
  - apply traverse_ok in E. apply traverse_err in H. destruct H as (b & Hb & Eb).
    destruct (Forall2_In_r _ _ _ _ E Hb) as (a & Ha & Ea).
    exists a. split; [assumption|]. unfold bind. now rewrite Ea.
  - inversion H; subst. apply traverse_err in E. destruct E as (a & Ha & Ea).
    exists a. split; [assumption|]. unfold bind. now rewrite Ea.
Qed.

(* ---- What the statements of Properties/C08.v are written with.  (Their two
   counter-models, [startup_tolerant] and [create_component_lenient], stand
   further down, each with the lemma that says where it agrees with the
   code.) ---- *)

(* the object a request for [n] of the target called [cname] resolves to:
   the entry under the same name, else the one under "<cname>_<n>" *)
Definition pick (inj : imap) (cname n : name) : value :=
  match get inj n with
  | Some o => Some o
  | None => get inj (prefixed cname n)
  end.

(* public, non-method, non-descriptor robot attributes *)
Definition robot_injectables (r : robot) : imap := collect_injectables (r_dir r).

(* the dict after  injectables[m] = component  for each of [cs], in order *)
Definition add_comps (inj : imap) (cs : list (name * compdef)) : imap :=
  fold_left (fun inj cd => (fst cd, Some (comp_obj (snd cd))) :: inj) cs inj.
Definition injectables_with (r : robot) (cs : list (name * compdef)) : imap :=
  add_comps (robot_injectables r) cs.
(* robot attributes and ALL components *)
Definition all_injectables (r : robot) : imap := injectables_with r (components r).

(* the hints of a target that ask for injection: public and not set yet *)
Definition requested (has : name -> bool) (hints : list (name * hint)) : list (name * hint) :=
  filter (fun nh => negb (is_private (fst nh)) && negb (has (fst nh))) hints.

(* everything that receives attribute injection: components, then modes *)
Definition targets (r : robot) : list target :=
  map (fun cd => comp_target (fst cd) (snd cd)) (components r) ++ map mode_target (r_modes r).

Definition typed_hints (l : list (name * hint)) : Prop :=
  forall n h, In (n, h) l -> hint_type h <> None.

(* every annotation that is looked at anywhere in the robot definition is a
   class or an alias of a class *)
Definition all_types (r : robot) : Prop :=
  (forall m, In (m, RNonType) (r_hints r) -> is_private m = true \/ robot_has r m = true) /\
  (forall m d, In (m, RClass d) (r_hints r) ->
     typed_hints (k_init_hints (c_class d)) /\ typed_hints (k_hints (c_class d))) /\
  (forall md, In md (r_modes r) -> typed_hints (m_hints md)).

(* [typed_hints] and [all_types] of a concrete robot, by evaluation *)
Definition typedb (l : list (name * hint)) : bool :=
  forallb (fun nh => match hint_type (snd nh) with Some _ => true | None => false end) l.

Lemma typed_hints_by_computation l : typedb l = true -> typed_hints l.
Proof.
  intros H n h HI. unfold typedb in H. rewrite forallb_forall in H. specialize (H _ HI). simpl in H.
  destruct (hint_type h); [discriminate|discriminate H].
Qed.

Definition all_typesb (r : robot) : bool :=
  forallb (fun mh => match snd mh with
                     | RNonType => is_private (fst mh) || robot_has r (fst mh)
                     | RClass d => typedb (k_init_hints (c_class d)) && typedb (k_hints (c_class d))
                     end) (r_hints r)
  && forallb (fun md => typedb (m_hints md)) (r_modes r).

Lemma all_types_by_computation r : all_typesb r = true -> all_types r.
Proof.
  unfold all_typesb. rewrite andb_true_iff, !forallb_forall. intros [HH HM].
  split; [|split].
  - intros m HI. apply HH in HI. now apply orb_true_iff.
  - intros m d HI. apply HH in HI. apply andb_true_iff in HI.
    split; now apply typed_hints_by_computation.
  - intros md HI. apply typed_hints_by_computation. now apply HM.
Qed.

Definition same_but_order (r r' : robot) : Prop :=
  r_dir r = r_dir r' /\ r_modes r = r_modes r' /\ Permutation (r_hints r) (r_hints r').

(* the dir() entry called n *)
Definition dir_entry (r : robot) (n : name) : option rattr :=
  find (fun a => String.eqb (ra_name a) n) (r_dir r).

(* entries whose value is read and kept: anything but a property/tunable of
   the class and a bound method *)
Definition kind_injectable (k : akind) : bool :=
  match k with KPlain | KCallable => true | KMethod | KDescriptor => false end.

(* the entries _collect_injectables keeps: public, not "logger", not a
   property / tunable of the class, not a bound method.  Whether the value is
   callable plays no role. *)
Definition injectable_attr (a : rattr) : bool :=
  negb (is_private (ra_name a)) && negb (String.eqb (ra_name a) "logger") &&
  match ra_kind a with KPlain | KCallable => true | KMethod | KDescriptor => false end.

Lemma injectable_attr_spec a :
  injectable_attr a =
  negb (is_private (ra_name a)) && negb (excluded (ra_name a)) && kind_injectable (ra_kind a).
Proof.
  unfold injectable_attr, excluded, exclude_from_injection, mem, kind_injectable. simpl.
  now rewrite orb_false_r.
Qed.

Lemma injectable_attr_public a : injectable_attr a = true -> is_private (ra_name a) = false.
Proof. unfold injectable_attr. now destruct (is_private (ra_name a)). Qed.

(* the same robot, every callable (non-method) attribute declared not callable *)
Definition forget_callable (a : rattr) : rattr :=
  {| ra_name := ra_name a;
     ra_kind := match ra_kind a with KCallable => KPlain | k => k end;
     ra_value := ra_value a |}.
Definition robot_forget_callable (r : robot) : robot :=
  {| r_dir := map forget_callable (r_dir r); r_hints := r_hints r; r_modes := r_modes r |}.

Definition rename_attr (f : name -> name) (a : rattr) : rattr :=
  {| ra_name := f (ra_name a); ra_kind := ra_kind a; ra_value := ra_value a |}.

(* Python's  a in b  for two str: a occurs in b as a contiguous substring.
   This is NOT the test _collect_injectables makes (that one is [excluded],
   list membership); only C08_nv_logger_like_names_not_excluded uses it, to
   say that the names it lists do resemble "logger" in that sense. *)
Fixpoint str_in (a b : string) : bool :=
  String.prefix a b || match b with EmptyString => false | String _ b' => str_in a b' end.

Section WithSubclass.
Variable subclass : cls -> cls -> bool.

(* [o] is what the request (n : T) of target [c] gets, and it passes isinstance *)
Definition fills (inj : imap) (c : name) (n : name) (T : cls) (o : obj) : Prop :=
  pick inj c n = Some o /\ subclass (ocls o) T = true.

(* no object under either name, or one that is not an instance of T *)
Definition unfillable (inj : imap) (c : name) (n : name) (T : cls) : Prop :=
  forall o, pick inj c n = Some o -> subclass (ocls o) T = false.

(* the annotation is not a class (TypeError), or the request is unfillable *)
Definition request_fails (inj : imap) (c : name) (n : name) (h : hint) : Prop :=
  match hint_type h with
  | None => True
  | Some T => unfillable inj c n T
  end.

Definition ctor_arg_ok (inj : imap) (c : name) (ph : name * hint) (po : name * obj) : Prop :=
  fst ph = fst po /\ is_private (fst ph) = false /\
  exists T, hint_type (snd ph) = Some T /\ fills inj c (fst ph) T (snd po).

(* what stops start-up (C08_fail_iff): a robot annotation, a constructor
   parameter, an annotated attribute of a component or mode *)
Definition robot_fault (r : robot) : Prop :=
  exists m, In (m, RNonType) (r_hints r) /\ is_private m = false /\ robot_has r m = false.

Definition ctor_fault (r : robot) : Prop :=
  exists before c d after p h,
    components r = before ++ (c, d) :: after /\ In (p, h) (k_init_hints (c_class d)) /\
    (is_private p = true \/ request_fails (injectables_with r before) c p h).

Definition attr_fault (r : robot) : Prop :=
  exists tg n h, In tg (targets r) /\ In (n, h) (t_hints tg) /\
    is_private n = false /\ t_has tg n = false /\
    request_fails (all_injectables r) (tname (t_ref tg)) n h.

Lemma fills_not_fails inj c n h T o :
  hint_type h = Some T -> fills inj c n T o -> request_fails inj c n h -> False.
Proof.
  intros ET [Hp Hs] Hf. unfold request_fails in Hf. rewrite ET in Hf.
  specialize (Hf o Hp). congruence.
Qed.

(* ---- [pick]: the plain name first ---- *)

Lemma pick_own inj c n o : get inj n = Some o -> pick inj c n = Some o.
Proof. intros H. unfold pick. now rewrite H. Qed.

(* a robot attribute whose value is None is not an injectable: lookups fall
   through to the prefixed name exactly as if the attribute did not exist *)
Theorem none_is_absent inj c n :
  get inj n = None -> pick inj c n = get inj (prefixed c n).
Proof. intros H. unfold pick. now rewrite H. Qed.

Lemma pick_ext inj inj' c n :
  (forall k, get inj k = get inj' k) -> pick inj c n = pick inj' c n.
Proof. intros E. unfold pick. now rewrite !E. Qed.

(* ---- inject.py: get_injection_requests ---- *)

(* an annotation becomes a request when it is a class or an alias of one *)
Definition typed (nh : name * hint) : res (name * cls) :=
  match hint_type (snd nh) with Some T => Ok (fst nh, T) | None => Err EType end.
(* ... and, for a constructor parameter, when its name is public *)
Definition public_typed (nh : name * hint) : res (name * cls) :=
  if is_private (fst nh) then Err EInject else typed nh.

Lemma requested_In has hints n h :
  In (n, h) (requested has hints) <-> In (n, h) hints /\ is_private n = false /\ has n = false.
Proof.
  unfold requested. rewrite filter_In. simpl.
  rewrite andb_true_iff, !negb_true_iff. tauto.
Qed.

Lemma get_requests_attr has hints :
  get_requests hints (Some has) = traverse typed (requested has hints).
Proof.
  induction hints as [|[n h] hints IH]; [reflexivity|].
  unfold requested in *. simpl.
  destruct (is_private n); simpl; [exact IH|].
  destruct (has n); simpl; [exact IH|].
  rewrite IH. unfold typed. simpl. destruct (hint_type h); reflexivity.
Qed.

Lemma get_requests_ctor hints : get_requests hints None = traverse public_typed hints.
Proof.
  induction hints as [|[n h] hints IH]; simpl; [reflexivity|].
  rewrite IH. unfold public_typed, typed. simpl.
  destruct (is_private n); [reflexivity|]. destruct (hint_type h); reflexivity.
Qed.

(* ---- inject.py: find_injections; its callers _setup_vars and _create_component ---- *)

Definition lookup (inj : imap) (c : name) (nT : name * cls) : res (name * obj) :=
  match pick inj c (fst nT) with
  | Some o => if subclass (ocls o) (snd nT) then Ok (fst nT, o) else Err EInject
  | None => Err EInject
  end.

Lemma find_injections_traverse rq inj c :
  find_injections subclass rq inj c = traverse (lookup inj c) rq.
Proof.
  induction rq as [|[n T] rq IH]; simpl; [reflexivity|]. rewrite IH.
  generalize (traverse (lookup inj c) rq). intros rest. unfold lookup, pick. simpl.
  destruct (get inj n) as [o|].
  - destruct (subclass (ocls o) T); reflexivity.
  - destruct (get inj (prefixed c n)) as [o|]; [|reflexivity].
    destruct (subclass (ocls o) T); reflexivity.
Qed.

(* what one annotation of the target [c] comes to: [bind (typed nh) (lookup inj c)] *)
Definition served (inj : imap) (c : name) (nh : name * hint) (no : name * obj) : Prop :=
  fst nh = fst no /\ exists T, hint_type (snd nh) = Some T /\ fills inj c (fst nh) T (snd no).

Lemma serve_ok inj c nh no : bind (typed nh) (lookup inj c) = Ok no -> served inj c nh no.
Proof.
  destruct nh as [n h]. unfold typed, lookup, bind, served, fills. simpl.
  destruct (hint_type h) as [T|]; [simpl|discriminate].
  destruct (pick inj c n) as [o|]; [|discriminate].
  destruct (subclass (ocls o) T) eqn:ES; [|discriminate].
  intros H. inversion H; subst. simpl. eauto.
Qed.

Lemma serve_err inj c nh e :
  bind (typed nh) (lookup inj c) = Err e ->
  request_fails inj c (fst nh) (snd nh) /\
  (e = EInject \/ (e = EType /\ hint_type (snd nh) = None)).
Proof.
  destruct nh as [n h]. unfold typed, lookup, bind, request_fails, unfillable. simpl.
  destruct (hint_type h) as [T|]; simpl.
  - destruct (pick inj c n) as [o|].
    + destruct (subclass (ocls o) T) eqn:ES; [discriminate|]. intros H. inversion H.
      split; [|now left]. intros o' Ho'. inversion Ho'; subst. exact ES.
    + intros H. inversion H. split; [discriminate|now left].
  - intros H. inversion H. split; [exact I|right; now split].
Qed.

Lemma setup_vars_eq tg inj :
  setup_vars subclass tg inj =
  bind (traverse typed (requested (t_has tg) (t_hints tg))) (traverse (lookup inj (tname (t_ref tg)))).
Proof.
  unfold setup_vars. rewrite get_requests_attr.
  destruct (traverse typed _); [apply find_injections_traverse|reflexivity].
Qed.

Lemma setup_vars_ok tg inj upd :
  setup_vars subclass tg inj = Ok upd ->
  Forall2 (served inj (tname (t_ref tg))) (requested (t_has tg) (t_hints tg)) upd.
Proof.
  rewrite setup_vars_eq. intros H.
  eapply Forall2_impl; [apply serve_ok|exact (traverse2_ok _ _ _ _ H)].
Qed.

Lemma setup_vars_err tg inj e :
  setup_vars subclass tg inj = Err e ->
  exists n h, In (n, h) (t_hints tg) /\ is_private n = false /\ t_has tg n = false /\
    request_fails inj (tname (t_ref tg)) n h /\
    (e = EInject \/ (e = EType /\ hint_type h = None)).
Proof.
  rewrite setup_vars_eq. intros H. destruct (traverse2_err _ _ _ _ H) as ([n h] & HI & HE).
  apply requested_In in HI. destruct HI as (HI & HP & HH). destruct (serve_err _ _ _ _ HE) as [HF HC].
  now exists n, h.
Qed.

Lemma setup_vars_ext tg inj inj' :
  (forall k, get inj k = get inj' k) ->
  setup_vars subclass tg inj = setup_vars subclass tg inj'.
Proof.
  intros E. rewrite !setup_vars_eq. destruct (traverse typed _); [|reflexivity].
  apply traverse_ext. intros nT. unfold lookup. now rewrite (pick_ext _ _ _ _ E).
Qed.

Lemma create_component_eq m d inj :
  create_component subclass m d inj =
  bind (traverse public_typed (k_init_hints (c_class d))) (traverse (lookup inj m)).
Proof.
  unfold create_component. rewrite get_requests_ctor.
  destruct (traverse public_typed _); [apply find_injections_traverse|reflexivity].
Qed.

Lemma create_component_ok m d inj kw :
  create_component subclass m d inj = Ok kw ->
  Forall2 (ctor_arg_ok inj m) (k_init_hints (c_class d)) kw.
Proof.
  rewrite create_component_eq. intros H.
  eapply Forall2_impl; [|exact (traverse2_ok _ _ _ _ H)].
  intros ph po. unfold public_typed. destruct (is_private (fst ph)) eqn:EP; [discriminate|].
  (* a constructor argument is a served request whose name is public *)
  intros HS. destruct (serve_ok _ _ _ _ HS) as [En HT]. exact (conj En (conj EP HT)).
Qed.

Lemma create_component_err m d inj e :
  create_component subclass m d inj = Err e ->
  exists p h, In (p, h) (k_init_hints (c_class d)) /\
    (is_private p = true \/ request_fails inj m p h) /\
    (e = EInject \/ (e = EType /\ hint_type h = None)).
Proof.
  rewrite create_component_eq. intros H. destruct (traverse2_err _ _ _ _ H) as ([p h] & HI & HE).
  exists p, h. split; [exact HI|]. unfold public_typed in HE. simpl in HE.
  destruct (is_private p).
  - inversion HE. split; now left.
  - destruct (serve_err _ _ _ _ HE). split; [now right|assumption].
Qed.

Lemma create_component_nil m d inj :
  k_init_hints (c_class d) = [] -> create_component subclass m d inj = Ok [].
Proof. intros E. unfold create_component. rewrite E. reflexivity. Qed.

(* ---- first loop of _create_components: construction ---- *)

(* the loop runs over the annotations: [Model.components] with the list it
   walks made a parameter, for the inductions *)
Definition comps_of (r : robot) (hints : list (name * rhint)) : list (name * compdef) :=
  flat_map (fun mh =>
    if is_private (fst mh) || robot_has r (fst mh) then []
    else match snd mh with RClass d => [(fst mh, d)] | RNonType => [] end) hints.

Lemma components_eq r : components r = comps_of r (r_hints r).
Proof. reflexivity. Qed.

Lemma comps_of_cons r m h hints :
  comps_of r ((m, h) :: hints) =
  (if is_private m || robot_has r m then []
   else match h with RClass d => [(m, d)] | RNonType => [] end) ++ comps_of r hints.
Proof. reflexivity. Qed.

Lemma comps_of_In r hints m d :
  In (m, d) (comps_of r hints) <->
  In (m, RClass d) hints /\ is_private m = false /\ robot_has r m = false.
Proof.
  unfold comps_of. rewrite in_flat_map. split.
  - intros ([m' h] & HI & H). simpl in H.
    destruct (is_private m' || robot_has r m') eqn:ES; [contradiction|].
    destruct h as [d'|]; [|contradiction].
    destruct H as [[= -> ->]|[]]. apply orb_false_iff in ES. exact (conj HI ES).
  - intros (HI & HP & HH). exists (m, RClass d). split; [exact HI|]. simpl. rewrite HP, HH. now left.
Qed.

Lemma comps_of_NoDup r hints : NoDup (map fst hints) -> NoDup (map fst (comps_of r hints)).
Proof.
  induction hints as [|[m h] hints IH]; cbn [map fst]; intros ND; [constructor|].
  inversion ND as [|? ? Hn ND']; subst. rewrite comps_of_cons.
  destruct (is_private m || robot_has r m); simpl; [now apply IH|].
  destruct h as [d|]; simpl; [|now apply IH].
  constructor; [|now apply IH]. intros H. apply Hn.
  apply in_map_iff in H. destruct H as ([m' d'] & <- & H). apply comps_of_In in H.
  apply (in_map fst _ _ (proj1 H)).
Qed.

Lemma components_In r m d :
  In (m, d) (components r) <-> In (m, RClass d) (r_hints r) /\ is_private m = false /\ robot_has r m = false.
Proof. apply comps_of_In. Qed.

Lemma components_NoDup r : NoDup (map fst (r_hints r)) -> NoDup (map fst (components r)).
Proof. apply comps_of_NoDup. Qed.

(* the created components, one by one, each constructed from the map as it
   was at that moment *)
Fixpoint ctor_chain (inj : imap) (cds : list (name * compdef)) (cs : list created) : Prop :=
  match cds, cs with
  | [], [] => True
  | (c, d) :: cds', cr :: cs' =>
    cr_name cr = c /\ cr_def cr = d /\
    create_component subclass c d inj = Ok (cr_kwargs cr) /\
    ctor_chain ((c, Some (comp_obj d)) :: inj) cds' cs'
  | _, _ => False
  end.

Lemma ctor_chain_names inj cds cs :
  ctor_chain inj cds cs -> map (fun c => (cr_name c, cr_def c)) cs = cds.
Proof.
  revert inj cs. induction cds as [|[c d] cds IH]; intros inj [|cr cs]; simpl; try tauto.
  intros (E1 & E2 & _ & H). apply IH in H. now rewrite E1, E2, H.
Qed.

Lemma ctor_chain_split inj before c d after cs :
  ctor_chain inj (before ++ (c, d) :: after) cs ->
  exists kw, nth_error cs (List.length before) = Some {| cr_name := c; cr_def := d; cr_kwargs := kw |}
    /\ create_component subclass c d (add_comps inj before) = Ok kw.
Proof.
  revert inj cs. induction before as [|[c0 d0] before IH]; intros inj [|cr cs]; simpl; try tauto.
  - intros (E1 & E2 & E3 & _). exists (cr_kwargs cr). split; [|assumption].
    destruct cr; simpl in *; subst; reflexivity.
  - intros (_ & _ & _ & H). apply IH in H. exact H.
Qed.

(* what the first loop returns: the chain and the dict with every component
   added, or the error of the first robot annotation that is not a class or
   whose constructor cannot be served *)
Lemma construct_spec r hints inj :
  match construct subclass r hints inj with
  | Ok (cs, inj') =>
    (forall m, In (m, RNonType) hints -> is_private m = true \/ robot_has r m = true) /\
    ctor_chain inj (comps_of r hints) cs /\ inj' = add_comps inj (comps_of r hints)
  | Err e =>
    (e = EType /\ exists m, In (m, RNonType) hints /\ is_private m = false /\ robot_has r m = false)
    \/ (exists before c d after, comps_of r hints = before ++ (c, d) :: after /\
          create_component subclass c d (add_comps inj before) = Err e)
  end.
Proof.
  revert inj. induction hints as [|[m h] hints IH]; intros inj; cbn [construct].
  - repeat split. intros m [].
  - rewrite comps_of_cons, if_orb.
    destruct (is_private m || robot_has r m) eqn:ES; simpl.
    + (* the annotation is skipped *)
      apply orb_true_iff in ES. specialize (IH inj).
      destruct (construct subclass r hints inj) as [[cs inj']|e].
      * destruct IH as (HN & HC). split; [|exact HC].
        intros m0 [[= <- _]|HI]; [exact ES|exact (HN m0 HI)].
      * destruct IH as [(-> & m' & HI & HF)|HR]; [left|right; exact HR].
        split; [reflexivity|]. exists m'. split; [now right|exact HF].
    + apply orb_false_iff in ES. destruct h as [d|]; simpl.
      * destruct (create_component subclass m d inj) as [kw|e] eqn:EC.
        -- specialize (IH ((m, Some (comp_obj d)) :: inj)).
           destruct (construct subclass r hints ((m, Some (comp_obj d)) :: inj)) as [[cs inj']|e].
           ++ destruct IH as (HN & HC & HI). split; [|split; [simpl; auto|exact HI]].
              intros m0 [[=]|H]. exact (HN m0 H).
           ++ destruct IH as [(-> & m' & HI & HF)|(before & c & d' & after & E1 & E2)].
              ** left. split; [reflexivity|]. exists m'. split; [now right|exact HF].
              ** right. exists ((m, d) :: before), c, d', after. split; [simpl; now rewrite E1|exact E2].
        -- right. eexists [], m, d, _. split; [reflexivity|exact EC].
      * left. split; [reflexivity|]. exists m. split; [now left|exact ES].
Qed.

(* the loop as [startup] runs it: over the robot's annotations, from the robot's own attributes *)
Lemma construct_robot_ok r cs inj' :
  construct subclass r (r_hints r) (robot_injectables r) = Ok (cs, inj') ->
  (forall m, In (m, RNonType) (r_hints r) -> is_private m = true \/ robot_has r m = true) /\
  ctor_chain (robot_injectables r) (components r) cs /\ inj' = all_injectables r.
Proof.
  intros E. pose proof (construct_spec r (r_hints r) (robot_injectables r)) as H. now rewrite E in H.
Qed.

Lemma construct_robot_err r e :
  construct subclass r (r_hints r) (robot_injectables r) = Err e ->
  (e = EType /\ robot_fault r) \/
  (exists before c d after, components r = before ++ (c, d) :: after /\
     create_component subclass c d (injectables_with r before) = Err e).
Proof.
  intros E. pose proof (construct_spec r (r_hints r) (robot_injectables r)) as H. now rewrite E in H.
Qed.

(* without constructor parameters nothing but a non-class robot annotation can
   stop the first loop *)
Lemma construct_noctor r hints inj :
  (forall m, In (m, RNonType) hints -> is_private m = true \/ robot_has r m = true) ->
  (forall c d, In (c, d) (comps_of r hints) -> k_init_hints (c_class d) = []) ->
  exists cs, construct subclass r hints inj = Ok (cs, add_comps inj (comps_of r hints)).
Proof.
  intros HN HC. pose proof (construct_spec r hints inj) as H.
  destruct (construct subclass r hints inj) as [[cs inj']|e].
  - destruct H as (_ & _ & ->). eauto.
  - exfalso. destruct H as [(_ & m & HI & HP & HH)|(before & c & d & after & E & HE)].
    + destruct (HN m HI); congruence.
    + rewrite create_component_nil in HE; [discriminate|].
      apply (HC c d). rewrite E. apply in_elt.
Qed.

Lemma construct_has_ext r r' hints inj :
  (forall m, robot_has r m = robot_has r' m) ->
  construct subclass r hints inj = construct subclass r' hints inj.
Proof.
  intros HH. revert inj. induction hints as [|[m h] hints IH]; simpl; intros inj; [reflexivity|].
  rewrite <- HH. destruct (is_private m); [apply IH|].
  destruct (robot_has r m); [apply IH|].
  destruct h as [d|]; [|reflexivity].
  destruct (create_component subclass m d inj); [|reflexivity]. now rewrite IH.
Qed.

(* ---- second and third loop of _create_components: attribute injection ---- *)

Lemma inject_all_traverse tgs inj :
  inject_all subclass tgs inj =
  traverse (fun tg => bind (setup_vars subclass tg inj) (fun u => Ok (t_ref tg, u))) tgs.
Proof.
  induction tgs as [|tg tgs IH]; simpl; [reflexivity|]. rewrite IH.
  destruct (setup_vars subclass tg inj); reflexivity.
Qed.

Lemma inject_all_ok tgs inj ups :
  inject_all subclass tgs inj = Ok ups ->
  Forall2 (fun tg u => fst u = t_ref tg /\ setup_vars subclass tg inj = Ok (snd u)) tgs ups.
Proof.
  rewrite inject_all_traverse. intros H. eapply Forall2_impl; [|exact (traverse_ok _ _ _ H)].
  intros tg u. simpl. destruct (setup_vars subclass tg inj); [|discriminate].
  intros E. inversion E. now split.
Qed.

Lemma inject_all_err tgs inj e :
  inject_all subclass tgs inj = Err e ->
  exists tg, In tg tgs /\ setup_vars subclass tg inj = Err e.
Proof.
  rewrite inject_all_traverse. intros H. destruct (traverse_err _ _ _ H) as (tg & HI & E).
  exists tg. split; [exact HI|]. destruct (setup_vars subclass tg inj); [discriminate|now inversion E].
Qed.

Lemma inject_all_total tgs inj :
  (forall tg, In tg tgs -> exists u, setup_vars subclass tg inj = Ok u) ->
  exists ups, inject_all subclass tgs inj = Ok ups.
Proof.
  rewrite inject_all_traverse. intros H. apply traverse_total.
  intros tg HI. destruct (H tg HI) as [u ->]. simpl. eauto.
Qed.

Lemma comp_in_targets r c d : In (c, d) (components r) -> In (comp_target c d) (targets r).
Proof. intros H. apply in_or_app. left. now apply (in_map (fun cd => comp_target (fst cd) (snd cd)) _ (c, d)). Qed.

Lemma mode_in_targets r md : In md (r_modes r) -> In (mode_target md) (targets r).
Proof. intros H. apply in_or_app. right. now apply in_map. Qed.

(* _create_component and the modes loop have assigned .logger by then *)
Lemma target_has_logger r tg : In tg (targets r) -> t_has tg "logger" = true.
Proof.
  intros H. apply in_app_or in H. destruct H as [H|H]; apply in_map_iff in H;
    destruct H as (x & <- & _); reflexivity.
Qed.

(* ---- the three loops together ---- *)

(* when the first loop has succeeded, the dict holds every component and the
   targets of the other two loops are [targets r] *)
Lemma startup_eq r :
  startup subclass r =
  match construct subclass r (r_hints r) (robot_injectables r) with
  | Err e => Err e
  | Ok (cs, _) =>
    match inject_all subclass (targets r) (all_injectables r) with
    | Err e => Err e
    | Ok ups => Ok {| st_comps := cs; st_updates := ups |}
    end
  end.
Proof.
  unfold startup. fold (robot_injectables r).
  destruct (construct subclass r (r_hints r) (robot_injectables r)) as [[cs inj]|e] eqn:EC; [|reflexivity].
  destruct (construct_robot_ok r cs inj EC) as (_ & HC & ->).
  (* the created components are [components r]: the list the loops run over is [targets r] *)
  unfold targets. rewrite <- (ctor_chain_names _ _ _ HC), map_map. reflexivity.
Qed.

Lemma startup_ok r s :
  startup subclass r = Ok s ->
  (forall m, In (m, RNonType) (r_hints r) -> is_private m = true \/ robot_has r m = true) /\
  ctor_chain (robot_injectables r) (components r) (st_comps s) /\
  Forall2 (fun tg u => fst u = t_ref tg /\ setup_vars subclass tg (all_injectables r) = Ok (snd u))
          (targets r) (st_updates s).
Proof.
  rewrite startup_eq.
  destruct (construct subclass r (r_hints r) (robot_injectables r)) as [[cs inj]|e] eqn:EC; [|discriminate].
  destruct (inject_all subclass (targets r) (all_injectables r)) as [ups|e] eqn:EI; [|discriminate].
  intros [= <-]. destruct (construct_robot_ok r cs inj EC) as (HN & HC & _).
  exact (conj HN (conj HC (inject_all_ok _ _ _ EI))).
Qed.

(* the last part alone: the update written into a target is its own [setup_vars] ... *)
Lemma startup_updates r s :
  startup subclass r = Ok s ->
  Forall2 (fun tg u => fst u = t_ref tg /\ setup_vars subclass tg (all_injectables r) = Ok (snd u))
          (targets r) (st_updates s).
Proof. intros HS. exact (proj2 (proj2 (startup_ok r s HS))). Qed.

(* ... that is, entry by entry, what the target's requests come to *)
Lemma startup_served r s :
  startup subclass r = Ok s ->
  Forall2 (fun tg u => fst u = t_ref tg /\
             Forall2 (served (all_injectables r) (tname (t_ref tg)))
                     (requested (t_has tg) (t_hints tg)) (snd u))
          (targets r) (st_updates s).
Proof.
  intros HS. eapply Forall2_impl; [|exact (startup_updates r s HS)].
  intros tg u [Et Es]. split; [exact Et|]. now apply setup_vars_ok.
Qed.

(* ---- the trace of a started robot: constructor calls and injections, then
   the setup() calls (C08_inject_before_setup) ---- *)

Definition is_setup (e : event) : Prop := match e with EvSetup _ => True | _ => False end.

Lemma before_first_setup_split a b :
  Forall (fun e => ~ is_setup e) a -> Forall is_setup b -> before_first_setup (a ++ b) = a.
Proof.
  intros Ha Hb. induction Ha as [|e a He Ha IH]; simpl.
  - destruct Hb as [|e b He _]; [reflexivity|]. destruct e; simpl in He; try contradiction. reflexivity.
  - destruct e; try (now rewrite IH). exfalso. apply He. exact I.
Qed.

Lemma before_first_setup_trace r s :
  before_first_setup (trace_of r s) =
  map (fun c => EvCtor (cr_name c) (cr_kwargs c)) (st_comps s)
  ++ map (fun u => EvInject (fst u) (snd u)) (st_updates s).
Proof.
  unfold trace_of. rewrite app_assoc. apply before_first_setup_split.
  - apply Forall_app. split; apply Forall_map, Forall_forall; intros x _ H; exact H.
  - apply Forall_app. split; apply Forall_map, Forall_forall; intros x _; exact I.
Qed.

Lemma before_first_setup_incl tr e : In e (before_first_setup tr) -> In e tr.
Proof.
  induction tr as [|x tr IH]; simpl; [tauto|].
  destruct x; simpl; try tauto; intros [H|H]; auto.
Qed.

(* the setup() calls come last *)
Lemma before_setup_keeps r s e :
  ~ is_setup e -> In e (trace_of r s) -> In e (before_first_setup (trace_of r s)).
Proof.
  intros He H. rewrite before_first_setup_trace. unfold trace_of in H. rewrite app_assoc in H.
  apply in_app_or in H. destruct H as [H|H]; [exact H|]. destruct He.
  apply in_app_or in H. destruct H as [H|H]; apply in_map_iff in H; destruct H as (? & <- & _); exact I.
Qed.

(* every injection event of a successful startup precedes the first setup() *)
Lemma inject_before_setup r s t upd :
  In (EvInject t upd) (trace_of r s) -> In (EvInject t upd) (before_first_setup (trace_of r s)).
Proof. apply before_setup_keeps. intros []. Qed.

Lemma ctor_before_setup r s c kw :
  In (EvCtor c kw) (trace_of r s) -> In (EvCtor c kw) (before_first_setup (trace_of r s)).
Proof. apply before_setup_keeps. intros []. Qed.

Lemma trace_inject_events r s t upd :
  In (EvInject t upd) (trace_of r s) <-> In (t, upd) (st_updates s).
Proof.
  split.
  - intros H. apply inject_before_setup in H. rewrite before_first_setup_trace in H.
    apply in_app_or in H. destruct H as [H|H]; apply in_map_iff in H; destruct H as (x & [= <- <-] & HI).
    now destruct x.
  - intros H. unfold trace_of. apply in_or_app. right. apply in_or_app. left.
    exact (in_map (fun u => EvInject (fst u) (snd u)) _ (t, upd) H).
Qed.

(* ---- what a started robot's attributes read (C08_attr_exact, the three
   C08_untouched) and what its constructors were passed (C08_ctor) ---- *)

(* [injected evs t n = Some o] only if some event of [evs] writes o to t.n,
   [None] only if none writes t.n.  That it is the first such event is not
   stated: any will do, see [attr_at_written] below. *)
Lemma injected_some evs t n o :
  injected evs t n = Some o -> exists upd, In (EvInject t upd) evs /\ In (n, o) upd.
Proof.
  induction evs as [|e evs IH]; [discriminate|].
  assert (tail : injected evs t n = Some o ->
                 exists upd, In (EvInject t upd) (e :: evs) /\ In (n, o) upd).
  { intros H. destruct (IH H) as (upd & HI & Hn). exists upd. split; [now right|exact Hn]. }
  destruct e as [c kw|t' upd'|t']; cbn [injected].
  - exact tail.
  - destruct (tref_eqb t' t) eqn:ET; [|exact tail].
    apply tref_eqb_eq in ET. subst t'. destruct (assoc n upd') as [o'|] eqn:EA; [|exact tail].
    intros [= ->]. exists upd'. split; [now left|now apply assoc_In].
  - exact tail.
Qed.

Lemma injected_none evs t n :
  injected evs t n = None -> forall upd, In (EvInject t upd) evs -> ~ In n (map fst upd).
Proof.
  induction evs as [|e evs IH]; [intros _ upd []|].
  destruct e as [c kw|t' upd'|t']; cbn [injected].
  - intros H upd [[=]|HI]. now apply IH.
  - destruct (tref_eqb t' t) eqn:ET.
    + destruct (assoc n upd') eqn:EA; [discriminate|].
      intros H upd [[= <- <-]|HI]; [now apply assoc_None|now apply IH].
    + intros H upd [[= -> _]|HI]; [now rewrite tref_eqb_refl in ET|now apply IH].
  - intros H upd [[=]|HI]. now apply IH.
Qed.

Lemma attr_at_unwritten r evs t n :
  (forall upd, In (EvInject t upd) evs -> ~ In n (map fst upd)) ->
  attr_at r evs t n = initial_attr r evs t n.
Proof.
  intros H. unfold attr_at. destruct (injected evs t n) as [o|] eqn:EJ; [|reflexivity].
  destruct (injected_some _ _ _ _ EJ) as (upd & HI & Hn). destruct (H upd HI). apply (in_map fst _ _ Hn).
Qed.

(* What an injection event of a successful start-up writes: under a public,
   annotated, not yet set name of a target with that reference, the object
   [pick] names.  (Two targets may share a reference; they then also share the
   name [pick] prefixes with.) *)
Lemma inject_event_spec r s t upd n o :
  startup subclass r = Ok s ->
  In (EvInject t upd) (trace_of r s) -> In (n, o) upd ->
  exists tg h, In tg (targets r) /\ t_ref tg = t /\ In (n, h) (t_hints tg) /\
    is_private n = false /\ t_has tg n = false /\
    pick (all_injectables r) (tname t) n = Some o.
Proof.
  intros HS HI Hn. apply trace_inject_events in HI.
  destruct (Forall2_In_r _ _ _ _ (startup_served r s HS) HI) as (tg & Htg & Et & Es). simpl in Et, Es. subst t.
  destruct (Forall2_In_r _ _ _ _ Es Hn) as ([n' h] & HR & E & T & _ & Hp & _). simpl in E, Hp. subst n'.
  apply requested_In in HR. destruct HR as (Hh & HP & HH).
  exists tg, h. now repeat split.
Qed.

(* every write of t.n stores the same object *)
Lemma inject_event_pick r s t upd n o :
  startup subclass r = Ok s ->
  In (EvInject t upd) (trace_of r s) -> In (n, o) upd ->
  pick (all_injectables r) (tname t) n = Some o.
Proof.
  intros HS HI Hn. destruct (inject_event_spec r s t upd n o HS HI Hn) as (tg & h & H). apply H.
Qed.

(* so an attribute that some event of the trace writes reads that object after
   any part [evs] of the trace that holds the event: [attr_at] reads the FIRST
   write of t.n in [evs], which may be another event, but every write stores
   [pick (all_injectables r) (tname t) n] *)
Lemma attr_at_written r s evs t upd n o :
  startup subclass r = Ok s -> (forall e, In e evs -> In e (trace_of r s)) ->
  In (EvInject t upd) evs -> In (n, o) upd -> attr_at r evs t n = Is (Some o).
Proof.
  intros HS Hsub HI Hn. unfold attr_at. destruct (injected evs t n) as [o'|] eqn:EJ.
  - destruct (injected_some _ _ _ _ EJ) as (upd' & HI' & Hn').
    pose proof (inject_event_pick r s t upd n o HS (Hsub _ HI) Hn) as Hp.
    pose proof (inject_event_pick r s t upd' n o' HS (Hsub _ HI') Hn') as Hp'.
    rewrite Hp in Hp'. now injection Hp' as <-.
  - destruct (injected_none _ _ _ EJ upd HI). apply (in_map fst _ _ Hn).
Qed.

(* C08_attr_exact and C08_attr_exact_modes are this, for a component and for a mode *)
Theorem attr_exact r s :
  startup subclass r = Ok s ->
  forall tg n h, In tg (targets r) -> In (n, h) (t_hints tg) ->
    is_private n = false -> t_has tg n = false ->
    exists T o, hint_type h = Some T /\
      pick (all_injectables r) (tname (t_ref tg)) n = Some o /\
      subclass (ocls o) T = true /\
      attr_at r (before_first_setup (trace_of r s)) (t_ref tg) n = Is (Some o) /\
      attr_at r (trace_of r s) (t_ref tg) n = Is (Some o).
Proof.
  intros HS tg n h Htg Hh HP HH.
  destruct (Forall2_In_l _ _ _ _ (startup_served r s HS) Htg) as ([t upd] & HU & Et & Es). simpl in Et, Es. subst t.
  destruct (Forall2_In_l _ _ _ _ Es (proj2 (requested_In _ _ n h) (conj Hh (conj HP HH))))
    as ([n' o] & Hno & E & T & ET & Hp & Hs). simpl in E, ET, Hp, Hs. subst n'.
  apply (proj2 (trace_inject_events r s _ _)) in HU.
  exists T, o. repeat split; try assumption.
  - apply (attr_at_written r s _ _ upd n o HS (before_first_setup_incl _));
      [now apply inject_before_setup|assumption].
  - now apply (attr_at_written r s _ _ upd n o HS (fun _ H => H)).
Qed.

(* What the robot stores under the attribute's own name -- a falsy object (0,
   '', an empty container, a component whose __bool__ is False) like any other
   -- is what the target gets. *)
Theorem own_name_delivered r s :
  startup subclass r = Ok s ->
  forall tg n h o, In tg (targets r) -> In (n, h) (t_hints tg) ->
    is_private n = false -> t_has tg n = false ->
    get (all_injectables r) n = Some o ->
    attr_at r (before_first_setup (trace_of r s)) (t_ref tg) n = Is (Some o) /\
    attr_at r (trace_of r s) (t_ref tg) n = Is (Some o).
Proof.
  intros HS tg n h o Htg Hh HP HH Hg.
  destruct (attr_exact r s HS tg n h Htg Hh HP HH) as (T & o' & _ & Hp & _ & H1 & H2).
  rewrite (pick_own _ _ _ _ Hg) in Hp. injection Hp as <-. now split.
Qed.

(* C08_untouched: the names written are those of the requests, in their order *)
Theorem updates_names r s :
  startup subclass r = Ok s ->
  Forall2 (fun tg u => fst u = t_ref tg /\
             map fst (snd u) = map fst (requested (t_has tg) (t_hints tg)))
          (targets r) (st_updates s).
Proof.
  intros HS. eapply Forall2_impl; [|exact (startup_served r s HS)].
  intros tg u [Et Es]. split; [exact Et|]. symmetry.
  apply Forall2_map_eq. eapply Forall2_impl; [|exact Es]. intros nh no [E _]. exact E.
Qed.

Theorem private_untouched r s t n :
  startup subclass r = Ok s -> is_private n = true ->
  attr_at r (trace_of r s) t n = initial_attr r (trace_of r s) t n.
Proof.
  intros HS HP. apply attr_at_unwritten. intros upd HI Hn.
  apply in_map_iff in Hn. destruct Hn as ([n' o] & <- & Hn).
  destruct (inject_event_spec _ _ _ _ _ _ HS HI Hn) as (_ & _ & _ & _ & _ & HP' & _).
  simpl in HP. congruence.
Qed.

(* nothing is ever written under a name the target already has a value for
   (target references are distinct: one component or mode per name) *)
Theorem set_attr_never_written r s tg n upd :
  startup subclass r = Ok s -> NoDup (map t_ref (targets r)) ->
  In tg (targets r) -> t_has tg n = true ->
  In (EvInject (t_ref tg) upd) (trace_of r s) -> ~ In n (map fst upd).
Proof.
  intros HS ND Htg HH HI Hn. apply in_map_iff in Hn. destruct Hn as ([n' o] & <- & Hn).
  destruct (inject_event_spec _ _ _ _ _ _ HS HI Hn) as (tg' & _ & Htg' & Et & _ & _ & HH' & _).
  assert (tg' = tg) by (eapply NoDup_map_inj; eauto). subst. simpl in HH. congruence.
Qed.

Theorem preset_untouched r s tg n :
  startup subclass r = Ok s -> NoDup (map t_ref (targets r)) ->
  In tg (targets r) -> t_has tg n = true ->
  attr_at r (trace_of r s) (t_ref tg) n = initial_attr r (trace_of r s) (t_ref tg) n.
Proof.
  intros HS ND Htg HH. apply attr_at_unwritten. intros upd.
  now apply (set_attr_never_written r s tg n upd).
Qed.

(* C08_ctor: the k-th component is constructed from the robot attributes and the k-1 before it *)
Theorem ctor_exact r s :
  startup subclass r = Ok s ->
  map (fun c => (cr_name c, cr_def c)) (st_comps s) = components r /\
  forall before c d after, components r = before ++ (c, d) :: after ->
    exists kw,
      nth_error (st_comps s) (List.length before) = Some {| cr_name := c; cr_def := d; cr_kwargs := kw |} /\
      Forall2 (ctor_arg_ok (injectables_with r before) c) (k_init_hints (c_class d)) kw.
Proof.
  intros HS. destruct (startup_ok _ _ HS) as (_ & HC & _). split; [exact (ctor_chain_names _ _ _ HC)|].
  intros before c d after E. rewrite E in HC.
  destruct (ctor_chain_split _ _ _ _ _ _ HC) as (kw & H1 & H2).
  exists kw. split; [exact H1|]. now apply create_component_ok.
Qed.

Lemma get_add_comps_sources inj cs k o :
  get (add_comps inj cs) k = Some o ->
  get inj k = Some o \/ exists d, In (k, d) cs /\ o = comp_obj d.
Proof.
  revert inj. induction cs as [|[c d] cs IH]; simpl; intros inj H; [now left|].
  apply IH in H. destruct H as [H|(d' & HI & E)].
  - simpl in H. destruct (String.eqb c k) eqn:EK.
    + apply String.eqb_eq in EK. subst. inversion H; subst. right. exists d. split; [now left|reflexivity].
    + now left.
  - right. exists d'. split; [now right|assumption].
Qed.

Theorem ctor_sources r before c n o :
  pick (injectables_with r before) c n = Some o ->
  exists k, (k = n \/ k = prefixed c n) /\
    (get (robot_injectables r) k = Some o \/ exists d, In (k, d) before /\ o = comp_obj d).
Proof.
  unfold pick, injectables_with. intros H.
  destruct (get (add_comps (robot_injectables r) before) n) as [o'|] eqn:E.
  - inversion H; subst. exists n. split; [now left|]. now apply get_add_comps_sources.
  - exists (prefixed c n). split; [now right|]. now apply get_add_comps_sources.
Qed.

(* ---- when start-up fails (C08_fail_iff, C08_error_class) ---- *)

Lemma targets_typed r tg : all_types r -> In tg (targets r) -> typed_hints (t_hints tg).
Proof.
  intros (_ & HC & HM) HI. apply in_app_iff in HI.
  destruct HI as [HI|HI]; apply in_map_iff in HI.
  - destruct HI as ([m d] & <- & HI). apply components_In in HI.
    now apply (HC m d).
  - destruct HI as (md & <- & HI). now apply HM.
Qed.

(* an error is one of the faults; it is TypeError only over an annotation that
   is not a class *)
Lemma startup_err r e :
  startup subclass r = Err e ->
  (e = EType /\ robot_fault r) \/
  (exists before c d after p h,
     components r = before ++ (c, d) :: after /\ In (p, h) (k_init_hints (c_class d)) /\
     (is_private p = true \/ request_fails (injectables_with r before) c p h) /\
     (e = EInject \/ (e = EType /\ hint_type h = None))) \/
  (exists tg n h, In tg (targets r) /\ In (n, h) (t_hints tg) /\
     is_private n = false /\ t_has tg n = false /\
     request_fails (all_injectables r) (tname (t_ref tg)) n h /\
     (e = EInject \/ (e = EType /\ hint_type h = None))).
Proof.
  rewrite startup_eq.
  destruct (construct subclass r (r_hints r) (robot_injectables r)) as [[cs inj]|e'] eqn:EC.
  - destruct (inject_all subclass (targets r) (all_injectables r)) as [ups|e'] eqn:EI; [discriminate|].
    intros [= <-]. right. right.
    destruct (inject_all_err _ _ _ EI) as (tg & Htg & HE).
    destruct (setup_vars_err _ _ _ HE) as (n & h & HE'). now exists tg, n, h.
  - intros [= <-]. destruct (construct_robot_err r e' EC) as [HL|(before & c & d & after & E1 & E2)]; [now left|].
    right. left. destruct (create_component_err _ _ _ _ E2) as (p & h & HE).
    now exists before, c, d, after, p, h.
Qed.

(* the same, through the three fault predicates: which fault there is, and that a TypeError needs an
   annotation that is not a class *)
Lemma startup_err_faults r e :
  startup subclass r = Err e ->
  (robot_fault r \/ ctor_fault r \/ attr_fault r) /\
  (e = EInject \/ (e = EType /\ ~ all_types r)).
Proof.
  intros H.
  destruct (startup_err r e H) as [[-> HR]|[(before & c & d & after & p & h & E1 & HI & HF & Hcl)
                                           |(tg & n & h & Htg & HI & HP & HH & HF & Hcl)]].
  - split; [now left|right]. split; [reflexivity|].
    intros (HN & _). destruct HR as (m & HI & HP & HH). destruct (HN m HI); congruence.
  - split; [right; left; now exists before, c, d, after, p, h|].
    destruct Hcl as [->|[-> EN]]; [now left|right]. split; [reflexivity|].
    intros (_ & HCl & _).
    assert (Hc : In (c, d) (components r)) by (rewrite E1; apply in_elt).
    apply components_In in Hc. destruct (HCl c d (proj1 Hc)) as [H1 _]. now apply (H1 p h).
  - split; [right; right; now exists tg, n, h|].
    destruct Hcl as [->|[-> EN]]; [now left|right]. split; [reflexivity|].
    intros HT. now apply (targets_typed r tg HT Htg n h).
Qed.

Theorem fail_iff r :
  (exists e, startup subclass r = Err e) <-> robot_fault r \/ ctor_fault r \/ attr_fault r.
Proof.
  split.
  - intros [e H]. exact (proj1 (startup_err_faults r e H)).
  - (* a started robot has none of the faults *)
    intros HF. destruct (startup subclass r) as [s|e] eqn:HS; [exfalso|eauto].
    destruct HF as [(m & HI & HP & HH)|[(before & c & d & after & p & h & E & HI & HF)|(tg & n & h & Htg & HI & HP & HH & HF)]].
    + destruct (startup_ok _ _ HS) as (HN & _). destruct (HN m HI); congruence.
    + destruct (ctor_exact _ _ HS) as [_ HC]. destruct (HC _ _ _ _ E) as (kw & _ & HA).
      destruct (Forall2_In_l _ _ _ _ HA HI) as ([p' o] & _ & _ & HP & T & ET & Hfill). simpl in *.
      destruct HF as [HF|HF]; [congruence|]. eapply fills_not_fails; eassumption.
    + destruct (attr_exact _ _ HS tg n h Htg HI HP HH) as (T & o & ET & Hp & Hs & _).
      eapply fills_not_fails; [exact ET|split; eassumption|exact HF].
Qed.

Theorem error_class r e : all_types r -> startup subclass r = Err e -> e = EInject.
Proof.
  intros HT H. destruct (proj2 (startup_err_faults r e H)) as [->|[_ HN]]; [reflexivity|contradiction].
Qed.

Theorem fail_inject_iff r : all_types r ->
  (startup subclass r = Err EInject <-> ctor_fault r \/ attr_fault r).
Proof.
  intros HT. split.
  - intros H. destruct (proj1 (fail_iff r) (ex_intro _ _ H)) as [(m & HI & HP & HH)|HF]; [|exact HF].
    exfalso. destruct HT as (HN & _). destruct (HN m HI); congruence.
  - intros HF. destruct (proj2 (fail_iff r) (or_intror HF)) as [e He].
    rewrite He. f_equal. now apply error_class with (r := r).
Qed.

(* a fault stops start-up; with class annotations only, with the injection error *)
Theorem fault_fails r :
  robot_fault r \/ ctor_fault r \/ attr_fault r ->
  exists err, startup subclass r = Err err /\ (all_types r -> err = EInject).
Proof.
  intros HF. destruct (proj2 (fail_iff r) HF) as [err He].
  exists err. split; [exact He|]. intros HT. exact (error_class r err HT He).
Qed.

(* and a target whose own _setup_vars fails stops start-up *)
Theorem target_failure_on_its_own r tg e :
  In tg (targets r) -> setup_vars subclass tg (all_injectables r) = Err e ->
  exists e', startup subclass r = Err e'.
Proof.
  intros Htg HE. destruct (startup subclass r) as [s|e'] eqn:HS; [exfalso|eauto].
  destruct (Forall2_In_l _ _ _ _ (startup_updates r s HS) Htg) as (u & _ & _ & E). congruence.
Qed.

(* ---- what [all_injectables] holds; declaration order (C08_order_independent) ---- *)
Lemma get_add_comps inj cs k :
  NoDup (map fst cs) ->
  get (add_comps inj cs) k =
  match assoc k cs with Some d => Some (comp_obj d) | None => get inj k end.
Proof.
  revert inj. induction cs as [|[c d] cs IH]; simpl; intros inj ND; [reflexivity|].
  inversion ND as [|? ? Hn ND']; subst. rewrite IH by assumption. simpl.
  destruct (String.eqb c k) eqn:EK.
  - apply String.eqb_eq in EK. subst. now rewrite (proj2 (assoc_None k cs) Hn).
  - reflexivity.
Qed.

Lemma get_add_comps_other inj cs k : assoc k cs = None -> get (add_comps inj cs) k = get inj k.
Proof.
  revert inj. induction cs as [|[c d] cs IH]; simpl; intros inj H; [reflexivity|].
  destruct (String.eqb c k) eqn:EK; [discriminate|]. rewrite IH by assumption. simpl. now rewrite EK.
Qed.

Theorem all_injectables_get r k :
  NoDup (map fst (r_hints r)) ->
  get (all_injectables r) k =
  match assoc k (components r) with
  | Some d => Some (comp_obj d)
  | None => get (robot_injectables r) k
  end.
Proof. intros ND. apply get_add_comps. now apply components_NoDup. Qed.

Lemma components_perm r r' : same_but_order r r' -> Permutation (components r) (components r').
Proof.
  intros (ED & _ & HP). unfold components.
  rewrite (flat_map_ext _ (fun mh => if is_private (fst mh) || robot_has r' (fst mh) then []
             else match snd mh with RClass d => [(fst mh, d)] | RNonType => [] end)).
  - now apply Permutation_flat_map.
  - intros mh. unfold robot_has. now rewrite ED.
Qed.

Lemma targets_perm r r' : same_but_order r r' -> Permutation (targets r) (targets r').
Proof.
  intros HSO. unfold targets. rewrite (proj1 (proj2 HSO)).
  apply Permutation_app_tail, Permutation_map, components_perm, HSO.
Qed.

Lemma all_injectables_perm r r' :
  same_but_order r r' -> NoDup (map fst (r_hints r)) ->
  forall k, get (all_injectables r) k = get (all_injectables r') k.
Proof.
  intros HSO ND k. pose proof (components_perm _ _ HSO) as HP. destruct HSO as (ED & _ & HH).
  rewrite !all_injectables_get;
    [|eapply Permutation_NoDup; [apply Permutation_map; exact HH|exact ND]|exact ND].
  rewrite (assoc_perm k _ _ HP (components_NoDup r ND)). unfold robot_injectables. now rewrite ED.
Qed.

(* the update of a target, as a function of the target *)
Definition update_of (inj : imap) (tg : target) : tref * list (name * obj) :=
  (t_ref tg, match setup_vars subclass tg inj with Ok u => u | Err _ => [] end).

Lemma updates_are_map r s :
  startup subclass r = Ok s -> st_updates s = map (update_of (all_injectables r)) (targets r).
Proof.
  intros HS. rewrite <- (map_id (st_updates s)). symmetry. apply Forall2_map_eq.
  eapply Forall2_impl; [|exact (startup_updates r s HS)].
  intros tg [t u] [E1 E2]. simpl in *. unfold update_of. now rewrite E2, E1.
Qed.

Theorem order_independent r r' s s' :
  same_but_order r r' -> NoDup (map fst (r_hints r)) ->
  startup subclass r = Ok s -> startup subclass r' = Ok s' ->
  Permutation (st_updates s) (st_updates s').
Proof.
  intros HSO ND HS HS'. rewrite (updates_are_map _ _ HS), (updates_are_map _ _ HS').
  rewrite (map_ext (update_of (all_injectables r')) (update_of (all_injectables r))).
  - apply Permutation_map. now apply targets_perm.
  - intros tg. unfold update_of. f_equal.
    rewrite (setup_vars_ext tg (all_injectables r') (all_injectables r)); [reflexivity|].
    intros k. symmetry. now apply all_injectables_perm.
Qed.

Theorem order_independent_attr r r' s s' :
  same_but_order r r' -> NoDup (map fst (r_hints r)) ->
  startup subclass r = Ok s -> startup subclass r' = Ok s' ->
  forall tg n h, In tg (targets r) -> In (n, h) (t_hints tg) ->
    is_private n = false -> t_has tg n = false ->
    In tg (targets r') /\
    attr_at r (trace_of r s) (t_ref tg) n = attr_at r' (trace_of r' s') (t_ref tg) n.
Proof.
  intros HSO ND HS HS' tg n h Htg Hh HP HH.
  assert (Htg' : In tg (targets r')) by (eapply Permutation_in; [apply targets_perm; eassumption|assumption]).
  split; [assumption|].
  destruct (attr_exact _ _ HS tg n h Htg Hh HP HH) as (T & o & _ & Hp & _ & _ & ->).
  destruct (attr_exact _ _ HS' tg n h Htg' Hh HP HH) as (T' & o' & _ & Hp' & _ & _ & ->).
  rewrite (pick_ext _ _ _ _ (all_injectables_perm _ _ HSO ND)) in Hp. congruence.
Qed.

(* without constructor parameters, success itself does not depend on the order *)
Theorem order_independent_success r r' s :
  same_but_order r r' -> NoDup (map fst (r_hints r)) ->
  (forall c d, In (c, d) (components r) -> k_init_hints (c_class d) = []) ->
  startup subclass r = Ok s -> exists s', startup subclass r' = Ok s'.
Proof.
  intros HSO ND HC HS. destruct (startup_ok _ _ HS) as (HN & _ & HF).
  destruct (construct_noctor r' (r_hints r') (robot_injectables r')) as [cs EC].
  { destruct HSO as (ED & _ & HP). intros m HI.
    destruct (HN m (Permutation_in _ (Permutation_sym HP) HI)) as [H|H]; [now left|].
    right. unfold robot_has in *. now rewrite <- ED. }
  { intros c d HI. rewrite <- components_eq in HI. apply (HC c d).
    exact (Permutation_in _ (Permutation_sym (components_perm _ _ HSO)) HI). }
  rewrite startup_eq, EC.
  destruct (inject_all_total (targets r') (all_injectables r')) as [ups ->]; [|eauto].
  intros tg Htg.
  pose proof (Permutation_in _ (Permutation_sym (targets_perm _ _ HSO)) Htg) as Htg0.
  destruct (Forall2_In_l _ _ _ _ HF Htg0) as ([t u] & _ & _ & E). simpl in E.
  exists u. rewrite <- E. apply setup_vars_ext. intros k. symmetry. now apply all_injectables_perm.
Qed.

(* ---- _collect_injectables: what the robot's own attributes contribute.
   Callable objects (anything but a bound method) are injectables like any
   other object. ---- *)

Lemma collect_cons a dir :
  collect_injectables (a :: dir) =
  if injectable_attr a then (ra_name a, ra_value a) :: collect_injectables dir
  else collect_injectables dir.
Proof.
  cbn [collect_injectables]. fold (excluded (ra_name a)). rewrite injectable_attr_spec.
  destruct (is_private (ra_name a)), (excluded (ra_name a)), (ra_kind a); reflexivity.
Qed.

Lemma collect_get_notin dir n :
  ~ In n (map ra_name dir) -> get (collect_injectables dir) n = None.
Proof.
  induction dir as [|a dir IH]; intros H; [reflexivity|]. rewrite collect_cons.
  assert (H1 : ra_name a <> n) by (intros E; apply H; now left).
  assert (H2 : ~ In n (map ra_name dir)) by (intros E; apply H; now right).
  destruct (injectable_attr a); [|now apply IH].
  simpl. apply String.eqb_neq in H1. rewrite H1. now apply IH.
Qed.

Lemma collect_get dir n :
  NoDup (map ra_name dir) ->
  get (collect_injectables dir) n =
  match find (fun a => String.eqb (ra_name a) n) dir with
  | Some a => if injectable_attr a then ra_value a else None
  | None => None
  end.
Proof.
  induction dir as [|a dir IH]; intros ND; [reflexivity|].
  cbn [map] in ND. inversion ND as [|? ? Hn ND']; subst. specialize (IH ND').
  rewrite collect_cons. cbn [find].
  destruct (String.eqb (ra_name a) n) eqn:EN.
  - apply String.eqb_eq in EN. subst n.
    destruct (injectable_attr a); [|now apply collect_get_notin].
    simpl. now rewrite String.eqb_refl.
  - destruct (injectable_attr a); [|exact IH]. simpl. now rewrite EN.
Qed.

Theorem robot_injectables_exact r n :
  NoDup (map ra_name (r_dir r)) ->
  get (robot_injectables r) n =
  match dir_entry r n with
  | Some a => if injectable_attr a then ra_value a else None
  | None => None
  end.
Proof. intros ND. unfold robot_injectables, dir_entry. now apply collect_get. Qed.

Lemma dir_entry_name r n a : dir_entry r n = Some a -> In a (r_dir r) /\ ra_name a = n.
Proof.
  unfold dir_entry. intros H. apply find_some in H. destruct H as [HI E].
  apply String.eqb_eq in E. now split.
Qed.

(* a robot attribute is not among the components: its annotation is skipped *)
Lemma robot_attr_not_component r n a cs :
  dir_entry r n = Some a -> (forall k d, In (k, d) cs -> In (k, d) (components r)) ->
  assoc n cs = None.
Proof.
  intros HE Hsub. apply assoc_None. intros HI. apply in_map_iff in HI.
  destruct HI as ([k d] & <- & HI). apply Hsub, components_In in HI.
  destruct HI as (_ & _ & HI). apply dir_entry_name in HE. destruct HE as [Ha En].
  apply (in_map ra_name) in Ha. apply mem_In in Ha. unfold robot_has in HI. simpl in En. congruence.
Qed.

(* A public robot attribute that is neither "logger", nor a property/tunable,
   nor a bound method -- callable or not -- is what a request for its name
   resolves to, whichever components [cs] have been added to the dict. *)
Lemma pick_robot_attr r cs c n a o :
  NoDup (map ra_name (r_dir r)) ->
  (forall k d, In (k, d) cs -> In (k, d) (components r)) ->
  dir_entry r n = Some a -> injectable_attr a = true -> ra_value a = Some o ->
  pick (injectables_with r cs) c n = Some o.
Proof.
  intros ND Hsub HE HI HV. apply pick_own. unfold injectables_with.
  rewrite (get_add_comps_other _ cs n (robot_attr_not_component r n a cs HE Hsub)).
  now rewrite (robot_injectables_exact r n ND), HE, HI.
Qed.

(* C08_robot_attr_delivered: attributes of components and modes *)
Theorem robot_attr_delivered r s :
  startup subclass r = Ok s -> NoDup (map ra_name (r_dir r)) ->
  forall tg n h a o, In tg (targets r) -> In (n, h) (t_hints tg) -> t_has tg n = false ->
    dir_entry r n = Some a -> injectable_attr a = true -> ra_value a = Some o ->
    attr_at r (before_first_setup (trace_of r s)) (t_ref tg) n = Is (Some o) /\
    attr_at r (trace_of r s) (t_ref tg) n = Is (Some o) /\
    exists T, hint_type h = Some T /\ subclass (ocls o) T = true.
Proof.
  intros HS ND tg n h a o Htg Hh HH HE HI HV.
  assert (HP : is_private n = false)
    by (destruct (dir_entry_name r n a HE) as [_ <-]; now apply injectable_attr_public).
  destruct (attr_exact r s HS tg n h Htg Hh HP HH) as (T & o' & ET & Hp & Hs & H1 & H2).
  unfold all_injectables in Hp.
  rewrite (pick_robot_attr r _ _ n a o ND (fun _ _ H => H) HE HI HV) in Hp. inversion Hp; subst o'.
  split; [assumption|]. split; [assumption|]. exists T. now split.
Qed.

(* C08_robot_attr_ctor_delivered: constructor parameters *)
Theorem robot_attr_ctor_delivered r s :
  startup subclass r = Ok s -> NoDup (map ra_name (r_dir r)) ->
  forall before c d after p h a o, components r = before ++ (c, d) :: after ->
    In (p, h) (k_init_hints (c_class d)) ->
    dir_entry r p = Some a -> injectable_attr a = true -> ra_value a = Some o ->
    exists kw,
      nth_error (st_comps s) (List.length before) = Some {| cr_name := c; cr_def := d; cr_kwargs := kw |} /\
      In (p, o) kw /\ exists T, hint_type h = Some T /\ subclass (ocls o) T = true.
Proof.
  intros HS ND before c d after p h a o E Hh HE HI HV.
  destruct (ctor_exact r s HS) as [_ HC]. destruct (HC _ _ _ _ E) as (kw & Hn & HA).
  exists kw. split; [exact Hn|].
  destruct (Forall2_In_l _ _ _ _ HA Hh) as ([p' o'] & Hkw & Ep & _ & T & ET & Hp & Hs).
  simpl in *. subst p'.
  assert (Hsub : forall k d', In (k, d') before -> In (k, d') (components r))
    by (intros k d' HB; rewrite E; apply in_or_app; now left).
  rewrite (pick_robot_attr r before c p a o ND Hsub HE HI HV) in Hp. inversion Hp; subst o'.
  split; [exact Hkw|]. exists T. now split.
Qed.

(* C08_robot_attr_serves: such a request is never the reason of a failure *)
Theorem robot_attr_serves r cs c n h T a o :
  NoDup (map ra_name (r_dir r)) ->
  (forall k d, In (k, d) cs -> In (k, d) (components r)) ->
  dir_entry r n = Some a -> injectable_attr a = true -> ra_value a = Some o ->
  hint_type h = Some T -> subclass (ocls o) T = true ->
  ~ request_fails (injectables_with r cs) c n h.
Proof.
  intros ND Hsub HE HI HV ET Hs HF.
  eapply fills_not_fails; [exact ET| |exact HF].
  split; [|exact Hs]. eapply pick_robot_attr; eauto.
Qed.

Lemma collect_forget_callable dir :
  collect_injectables (map forget_callable dir) = collect_injectables dir.
Proof.
  induction dir as [|a dir IH]; simpl; [reflexivity|]. rewrite IH.
  destruct (ra_kind a); reflexivity.
Qed.

Theorem callable_irrelevant r :
  startup subclass (robot_forget_callable r) = startup subclass r.
Proof.
  unfold startup. simpl. rewrite collect_forget_callable.
  rewrite (construct_has_ext (robot_forget_callable r) r).
  - reflexivity.
  - intros m. unfold robot_has. simpl. rewrite map_map. reflexivity.
Qed.

(* ---- The NAME of a robot attribute decides nothing except: a leading
   underscore, and being exactly "logger".  In particular a name that is a
   substring of "logger" (log, g, er, logg ...), contains it (loggers,
   my_logger) or differs in case (Logger) is an injectable like any other. ---- *)

Theorem excluded_iff_logger n : excluded n = true <-> n = "logger".
Proof.
  unfold excluded, exclude_from_injection, mem. simpl. rewrite orb_false_r. apply String.eqb_eq.
Qed.

(* for a public entry not called "logger" only the kind is left to look at *)
Lemma injectable_by_name r n a :
  dir_entry r n = Some a -> is_private n = false -> n <> "logger" ->
  injectable_attr a = kind_injectable (ra_kind a).
Proof.
  intros HE HP HN. apply dir_entry_name in HE. destruct HE as [_ <-].
  rewrite injectable_attr_spec, HP. destruct (excluded (ra_name a)) eqn:EX; [|reflexivity].
  now apply excluded_iff_logger in EX.
Qed.

(* C08_names_treated_alike: renaming the robot's attributes by any f that keeps
   "starts with an underscore" and "is exactly logger" renames the collected
   injectables and changes nothing else: no other feature of a name is looked at *)
Lemma injectable_attr_rename f a :
  is_private (f (ra_name a)) = is_private (ra_name a) ->
  excluded (f (ra_name a)) = excluded (ra_name a) ->
  injectable_attr (rename_attr f a) = injectable_attr a.
Proof. intros HP HX. rewrite !injectable_attr_spec. simpl. now rewrite HP, HX. Qed.

Theorem collect_rename f dir :
  (forall a, In a dir -> is_private (f (ra_name a)) = is_private (ra_name a) /\
                         excluded (f (ra_name a)) = excluded (ra_name a)) ->
  collect_injectables (map (rename_attr f) dir) =
  map (fun kv => (f (fst kv), snd kv)) (collect_injectables dir).
Proof.
  induction dir as [|a dir IH]; intros H; [reflexivity|].
  destruct (H a (or_introl eq_refl)) as [HP HX].
  assert (IH' := IH (fun b Hb => H b (or_intror Hb))).
  cbn [map]. rewrite !collect_cons, (injectable_attr_rename f a HP HX), IH'.
  destruct (injectable_attr a); reflexivity.
Qed.

(* C08_robot_attr_by_name_delivered: no hypothesis on the name but "public"
   ([t_has tg n = false] rules out "logger") *)
Theorem robot_attr_by_name_delivered r s :
  startup subclass r = Ok s -> NoDup (map ra_name (r_dir r)) ->
  forall tg n h a o, In tg (targets r) -> In (n, h) (t_hints tg) ->
    is_private n = false -> t_has tg n = false ->
    dir_entry r n = Some a -> kind_injectable (ra_kind a) = true -> ra_value a = Some o ->
    attr_at r (before_first_setup (trace_of r s)) (t_ref tg) n = Is (Some o) /\
    attr_at r (trace_of r s) (t_ref tg) n = Is (Some o) /\
    exists T, hint_type h = Some T /\ subclass (ocls o) T = true.
Proof.
  intros HS ND tg n h a o Htg Hh HP HH HE HK.
  apply (robot_attr_delivered r s HS ND tg n h a o Htg Hh HH HE).
  rewrite (injectable_by_name r n a HE HP); [exact HK|].
  intros ->. rewrite (target_has_logger r tg Htg) in HH. discriminate.
Qed.

Theorem robot_attr_by_name_delivered_comp r s :
  startup subclass r = Ok s -> NoDup (map ra_name (r_dir r)) ->
  forall c d n h a o, In (c, d) (components r) -> In (n, h) (k_hints (c_class d)) ->
    is_private n = false -> comp_has d n = false ->
    dir_entry r n = Some a -> kind_injectable (ra_kind a) = true -> ra_value a = Some o ->
    attr_at r (before_first_setup (trace_of r s)) (TComp c) n = Is (Some o) /\
    attr_at r (trace_of r s) (TComp c) n = Is (Some o) /\
    exists T, hint_type h = Some T /\ subclass (ocls o) T = true.
Proof.
  intros HS ND c d n h a o HI.
  exact (robot_attr_by_name_delivered r s HS ND _ n h a o (comp_in_targets r c d HI)).
Qed.

(* the plain name wins over "<c>_<n>" whatever the name looks like *)
Theorem plain_name_wins r cs c n a o :
  NoDup (map ra_name (r_dir r)) ->
  (forall k d, In (k, d) cs -> In (k, d) (components r)) ->
  is_private n = false -> n <> "logger" ->
  dir_entry r n = Some a -> kind_injectable (ra_kind a) = true -> ra_value a = Some o ->
  pick (injectables_with r cs) c n = Some o.
Proof.
  intros ND Hsub HP HN HE HK. apply (pick_robot_attr r cs c n a o ND Hsub HE).
  now rewrite (injectable_by_name r n a).
Qed.

(* ---- The driver station (FMS attached or not, enabled or not) while the
   robot program starts decides nothing: [startup_in e] is [startup], so every
   theorem above holds in every environment. ---- *)

(* which error, or which components / constructor kwargs / __dict__ updates:
   the same in every environment *)
Theorem startup_env_irrelevant e e' r : startup_in subclass e r = startup_in subclass e' r.
Proof. reflexivity. Qed.

(* "If no such object exists or it is not an instance of the annotated type,
   startup fails ...": a request of an attribute-injection target that cannot be
   served makes start-up fail, FMS attached or not *)
Theorem target_fault_fails_in e r tg n h :
  In tg (targets r) -> In (n, h) (t_hints tg) -> is_private n = false -> t_has tg n = false ->
  request_fails (all_injectables r) (tname (t_ref tg)) n h ->
  exists err, startup_in subclass e r = Err err /\ (all_types r -> err = EInject).
Proof. intros Htg Hh HP HH HF. apply fault_fails. right. right. now exists tg, n, h. Qed.

(* ... in particular for an autonomous mode *)
Theorem mode_fault_fails_in e r md n h :
  In md (r_modes r) -> In (n, h) (m_hints md) -> is_private n = false -> mode_has md n = false ->
  request_fails (all_injectables r) (m_name md) n h ->
  exists err, startup_in subclass e r = Err err /\ (all_types r -> err = EInject).
Proof.
  intros HI. exact (target_fault_fails_in e r (mode_target md) n h (mode_in_targets r md HI)).
Qed.

(* ---- NOT the code: the start-up that WOULD consult the driver station ---- *)
(* _setup_vars of every target inside "try: ... except: self.onException()"
   (the policy of the autonomous-mode loader: crash on the bench, keep going on
   the field): with the FMS attached a target whose request cannot be served is
   reported and left un-injected.  Only here to show that the statements above
   exclude something (the C08_nv_env examples). *)
Fixpoint inject_all_tolerant (e : env) (tgs : list target) (inj : imap)
  : res (list (tref * list (name * obj))) :=
  match tgs with
  | [] => Ok []
  | tg :: rest =>
    match on_exception e (setup_vars subclass tg inj) [] with
    | Err err => Err err
    | Ok upd =>
      match inject_all_tolerant e rest inj with
      | Err err => Err err
      | Ok ups => Ok ((t_ref tg, upd) :: ups)
      end
    end
  end.

Definition startup_tolerant (e : env) (r : robot) : res started :=
  match construct subclass r (r_hints r) (collect_injectables (r_dir r)) with
  | Err err => Err err
  | Ok (cs, inj) =>
    match inject_all_tolerant e (map (fun c => comp_target (cr_name c) (cr_def c)) cs
                                 ++ map mode_target (r_modes r)) inj with
    | Err err => Err err
    | Ok ups => Ok {| st_comps := cs; st_updates := ups |}
    end
  end.

Lemma inject_all_tolerant_no_fms e tgs inj :
  fms_attached e = false -> inject_all_tolerant e tgs inj = inject_all subclass tgs inj.
Proof.
  intros HE. induction tgs as [|tg rest IH]; simpl; [reflexivity|].
  unfold on_exception. rewrite HE, IH. destruct (setup_vars subclass tg inj); reflexivity.
Qed.

(* without the FMS the two agree; with it they differ
   (C08_nv_env_tolerant_startup_would_differ) *)
Theorem tolerant_without_fms e r :
  fms_attached e = false -> startup_tolerant e r = startup_in subclass e r.
Proof.
  intros HE. unfold startup_tolerant, startup_in, startup.
  destruct (construct subclass r (r_hints r) (collect_injectables (r_dir r))) as [[cs inj]|err];
    [|reflexivity].
  now rewrite inject_all_tolerant_no_fms.
Qed.

(* ---- Attributes that already have a value (hasattr is true when _setup_vars
   looks: class-level value, set in __init__, or a descriptor / marker the
   framework has bound -- magicbot.tunable, will_reset_to: PBound) ---- *)

(* What is annotated on an attribute that already has a value -- which type, a
   non-class, or no annotation at all -- changes nothing: _setup_vars sees only
   the public unset annotations, so two targets of the same name with the same
   ones are injected alike (same update or same error). *)
Theorem set_attr_annotation_irrelevant tg tg' inj :
  t_ref tg = t_ref tg' ->
  requested (t_has tg) (t_hints tg) = requested (t_has tg') (t_hints tg') ->
  setup_vars subclass tg inj = setup_vars subclass tg' inj.
Proof. intros ER EQ. now rewrite !setup_vars_eq, EQ, ER. Qed.

(* ---- NOT the code: the _create_component that WOULD use the defaults ---- *)
(* Default values of __init__ parameters are not an input of the model
   ([create_component_dflt] and [startup_dflt] ignore them).  Here a parameter
   that declares a default is resolved on its own and, when the robot has
   nothing under either name or something of another type, simply left to its
   default.  Only here to show that the statements exclude something (the
   C08_nv_default examples). *)
Fixpoint find_injections_lenient (dflt : init_defaults) (requests : list (name * cls)) (inj : imap)
  (cname : name) : res (list (name * obj)) :=
  match requests with
  | [] => Ok []
  | (n, T) :: rest =>
    match find_injections subclass [(n, T)] inj cname, assoc n dflt with
    | Err _, Some _ => find_injections_lenient dflt rest inj cname      (* "using the default" *)
    | Err e, None => Err e
    | Ok upd, _ =>
      match find_injections_lenient dflt rest inj cname with
      | Ok upd' => Ok (upd ++ upd')
      | Err e => Err e
      end
    end
  end.

Definition create_component_lenient (dflt : init_defaults) (m : name) (d : compdef) (inj : imap)
  : res (list (name * obj)) :=
  match get_requests (k_init_hints (c_class d)) None with
  | Err e => Err e
  | Ok rq => find_injections_lenient dflt rq inj m
  end.

Lemma find_injections_lenient_nil rq inj c :
  find_injections_lenient [] rq inj c = find_injections subclass rq inj c.
Proof.
  induction rq as [|[n T] rq IH]; [reflexivity|].
  cbn [find_injections_lenient assoc]. rewrite IH, !find_injections_traverse.
  (* one request is [lookup]; no default: its error is the error *)
  cbn [traverse]. destruct (lookup inj c (n, T)) as [no|e]; [|reflexivity].
  destruct (traverse (lookup inj c) rq); reflexivity.
Qed.

(* when no default is declared the two agree; C08_nv_default_lenient_would_differ
   has defaults on which they differ *)
Theorem lenient_without_defaults m d inj :
  create_component_lenient [] m d inj = create_component_dflt subclass [] m d inj.
Proof.
  unfold create_component_lenient, create_component_dflt, create_component.
  destruct (get_requests (k_init_hints (c_class d)) None); [|reflexivity].
  apply find_injections_lenient_nil.
Qed.

End WithSubclass.
