(* Proofs about the Sharp IR model (IR/Model.v): the facts behind C17 for EVERY
   parameter set with c > 0, e < 0, 0 < lo < hi, fl > 0, then the three
   concrete parameter sets.  The numeric side conditions of those are proved
   from exp 1 <= 3 and 1 + x <= exp x, with lra / nra for the rest (not by
   [interval], so that the property theorems depend on the axioms of the
   standard library's real numbers only).  The generated correspondence files
   (harness/c17.py) close their per-sample lemmas with the instances
   [A##_q_*], [A##_rio_fin], [A##_rio_x] at the end of this file, with
   [close_rat], and for infinite samples with the six [corr_*inf] lemmas;
   [corr_mid], [corr_hi], [corr_lo], [corr_floor] serve them through [q_*]. *)
From Coq Require Import Reals Lra ZArith Lia Bool.
From RV Require Import IR.Model.
Open Scope R_scope.

Lemma exp_le_mono x y : x <= y -> exp x <= exp y.
Proof.
  intros [H | H].
  - left. apply exp_increasing. exact H.
  - subst. right. reflexivity.
Qed.

Lemma Rpower_pos x y : 0 < Rpower x y.
Proof. unfold Rpower. apply exp_pos. Qed.

Lemma Rpower_base_1 e : Rpower 1 e = 1.
Proof. unfold Rpower. rewrite ln_1, Rmult_0_r. apply exp_0. Qed.

Lemma Rpower_neg_strict x y e :
  e < 0 -> 0 < x -> x < y -> Rpower y e < Rpower x e.
Proof.
  intros He Hx Hxy. unfold Rpower. apply exp_increasing.
  pose proof (ln_increasing x y Hx Hxy) as Hl.
  assert (0 < (- e) * (ln y - ln x)) by (apply Rmult_lt_0_compat; lra).
  lra.
Qed.

Lemma math_pow_pos x y : 0 < x -> math_pow x y = Some (Rpower x y).
Proof. intros H. unfold math_pow. destruct (Rlt_dec 0 x); [reflexivity | contradiction]. Qed.

Lemma clamp_range lo hi d : lo <= hi -> lo <= clamp lo hi d <= hi.
Proof.
  intros H. unfold clamp. split.
  - apply Rmax_r.
  - apply Rmax_lub; [apply Rmin_r | exact H].
Qed.

Lemma clamp_id lo hi d : lo <= d <= hi -> clamp lo hi d = d.
Proof.
  intros [H1 H2]. unfold clamp.
  rewrite Rmin_left by exact H2. apply Rmax_left. exact H1.
Qed.

Lemma clamp_above lo hi d : lo <= hi -> hi <= d -> clamp lo hi d = hi.
Proof.
  intros H H1. unfold clamp.
  rewrite Rmin_right by exact H1. apply Rmax_left. exact H.
Qed.

Lemma clamp_below lo hi d : d <= lo -> clamp lo hi d = lo.
Proof.
  intros H. unfold clamp. apply Rmax_right.
  eapply Rle_trans; [apply Rmin_l | exact H].
Qed.

Lemma clamp_cases lo hi d :
  lo <= hi ->
  d <= lo /\ clamp lo hi d = lo \/
  lo <= d <= hi /\ clamp lo hi d = d \/
  hi <= d /\ clamp lo hi d = hi.
Proof.
  intros H. destruct (Rle_dec d lo) as [Hl | Hl]; [| destruct (Rle_dec hi d) as [Hh | Hh]].
  - left. split; [exact Hl | apply clamp_below; exact Hl].
  - right. right. split; [exact Hh | apply clamp_above; assumption].
  - right. left. assert (Hd : lo <= d <= hi) by lra. split; [exact Hd | apply clamp_id; exact Hd].
Qed.

Lemma clamp_mono lo hi d1 d2 : d1 <= d2 -> clamp lo hi d1 <= clamp lo hi d2.
Proof.
  intros H. unfold clamp.
  apply Rle_max_compat_r. apply Rle_min_compat_r. exact H.
Qed.

(* the order in which the two limits are applied does not matter (lo <= hi) *)
Lemma clamp_swap lo hi d : lo <= hi -> clamp lo hi d = Rmin (Rmax d lo) hi.
Proof.
  intros H. destruct (clamp_cases lo hi d H) as [[Hd ->] | [[Hd ->] | [Hd ->]]].
  - rewrite Rmax_right, Rmin_left by lra. reflexivity.
  - rewrite Rmax_left, Rmin_left by lra. reflexivity.
  - rewrite Rmax_left, Rmin_right by lra. reflexivity.
Qed.

(* [close] in the form [lra] decides once the literals are unfolded *)
Lemma close_rat tol x y : y - tol * y <= x <= y + tol * y -> close tol x y.
Proof. intros H. unfold close. apply Rabs_le. lra. Qed.

Lemma close_bounds tol x y : close tol x y -> y - tol * y <= x <= y + tol * y.
Proof. unfold close, Rabs. destruct (Rcase_abs (x - y)); lra. Qed.

(* what holds of any five numbers *)
Section AnyParameters.
Variables c e lo hi fl : R.

Lemma floor_mono v1 v2 : v1 <= v2 -> floor_v fl v1 <= floor_v fl v2.
Proof. intros H. unfold floor_v. apply Rle_max_compat_r. exact H. Qed.

Lemma reading_above_floor v :
  fl <= v -> reading c e lo hi fl v = clamp lo hi (c * Rpower v e).
Proof. intros H. unfold reading, floor_v, power_law. rewrite Rmax_left by exact H. reflexivity. Qed.

Lemma power_law_inside v :
  fl <= v -> lo <= c * Rpower v e <= hi -> reading c e lo hi fl v = c * Rpower v e.
Proof. intros Hv Hp. rewrite reading_above_floor by exact Hv. apply clamp_id. exact Hp. Qed.

Lemma reading_at_1V : fl <= 1 -> lo <= c <= hi -> reading c e lo hi fl 1 = c.
Proof.
  intros Hf H. rewrite power_law_inside.
  - rewrite Rpower_base_1. apply Rmult_1_r.
  - exact Hf.
  - rewrite Rpower_base_1, Rmult_1_r. exact H.
Qed.

Lemma below_floor v : v <= fl -> reading c e lo hi fl v = reading c e lo hi fl fl.
Proof.
  intros H. unfold reading, floor_v.
  rewrite (Rmax_right v fl) by exact H. rewrite (Rmax_left fl fl) by apply Rle_refl. reflexivity.
Qed.

(* the voltage the helper sets, by the branch of the clamp d takes *)
Lemma volts_inside d : lo <= d <= hi -> volts c e lo hi d = Rpower (d / c) (1 / e).
Proof. intros H. unfold volts. rewrite clamp_id by exact H. reflexivity. Qed.

Lemma volts_above d : lo <= hi -> hi <= d -> volts c e lo hi d = Rpower (hi / c) (1 / e).
Proof. intros H Hd. unfold volts. rewrite clamp_above by assumption. reflexivity. Qed.

Lemma volts_below d : d <= lo -> volts c e lo hi d = Rpower (lo / c) (1 / e).
Proof. intros Hd. unfold volts. rewrite clamp_below by exact Hd. reflexivity. Qed.

Lemma sim_remembers s d : get_distance (set_distance c e lo hi s d) = d.
Proof. reflexivity. Qed.

Lemma rio_pin_only r1 r2 :
  pin r1 = pin r2 ->
  rio_distance_opt c e lo hi fl r1 = rio_distance_opt c e lo hi fl r2.
Proof. unfold rio_distance_opt. intros E. rewrite E. reflexivity. Qed.

End AnyParameters.

Lemma rio_set_pin_frame r v : pin (rio_set_pin r v) = v /\ same_rails (rio_set_pin r v) r.
Proof. unfold same_rails. cbn. repeat split; reflexivity. Qed.

Section Generic.
Variables c e lo hi fl : R.
Hypothesis Hadm : admissible c e lo hi fl.

Local Ltac adm := pose proof Hadm as (Hc & He & Hlo & Hlh & Hfl).

Lemma floor_pos v : 0 < floor_v fl v.
Proof. adm. unfold floor_v. eapply Rlt_le_trans; [exact Hfl | apply Rmax_r]. Qed.

Lemma reading_total v : reading_opt c e lo hi fl v = Some (reading c e lo hi fl v).
Proof. unfold reading_opt. rewrite math_pow_pos by apply floor_pos. reflexivity. Qed.

Lemma in_range v : lo <= reading c e lo hi fl v <= hi.
Proof. adm. unfold reading. apply clamp_range. lra. Qed.

Lemma power_law_strict x y : 0 < x -> x < y -> c * Rpower y e < c * Rpower x e.
Proof.
  adm. intros Hx Hxy.
  apply Rmult_lt_compat_l; [exact Hc | apply Rpower_neg_strict; assumption].
Qed.

Lemma power_law_antitone x y : 0 < x -> x <= y -> c * Rpower y e <= c * Rpower x e.
Proof.
  intros Hx [H | H].
  - left. apply power_law_strict; assumption.
  - subst. right. reflexivity.
Qed.

Lemma antitone v1 v2 : v1 <= v2 -> reading c e lo hi fl v2 <= reading c e lo hi fl v1.
Proof.
  intros H. unfold reading. apply clamp_mono.
  apply power_law_antitone; [apply floor_pos | apply floor_mono; exact H].
Qed.

Lemma strictly_decreasing_inside v1 v2 :
  fl <= v1 -> v1 < v2 -> lo <= c * Rpower v2 e -> c * Rpower v1 e <= hi ->
  reading c e lo hi fl v2 < reading c e lo hi fl v1.
Proof.
  adm. intros H1 H12 Hl Hh.
  assert (Hs : c * Rpower v2 e < c * Rpower v1 e) by (apply power_law_strict; lra).
  rewrite !power_law_inside by lra. exact Hs.
Qed.

Lemma below_floor_hi v :
  hi <= c * Rpower fl e -> v <= fl -> reading c e lo hi fl v = hi.
Proof.
  adm. intros Hf H. rewrite below_floor by exact H.
  rewrite reading_above_floor by apply Rle_refl.
  apply clamp_above; [lra | exact Hf].
Qed.

Lemma volts_base_pos d : 0 < clamp lo hi d / c.
Proof. adm. pose proof (clamp_range lo hi d). apply Rdiv_lt_0_compat; lra. Qed.

Lemma volts_total d : volts_opt c e lo hi d = Some (volts c e lo hi d).
Proof. apply math_pow_pos, volts_base_pos. Qed.

Lemma power_law_volts d : c * Rpower (volts c e lo hi d) e = clamp lo hi d.
Proof.
  adm. unfold volts. rewrite Rpower_mult.
  replace (1 / e * e) with 1 by (field; lra).
  rewrite Rpower_1 by apply volts_base_pos. field. lra.
Qed.

(* a voltage is not above the one the helper sets for d as soon as its power
   law is not below d clamped: a higher voltage would have a smaller one *)
Lemma le_volts v d : clamp lo hi d <= c * Rpower v e -> v <= volts c e lo hi d.
Proof.
  intros H. apply Rnot_lt_le. intros Hlt.
  pose proof (power_law_strict (volts c e lo hi d) v (Rpower_pos _ _) Hlt) as Hs.
  rewrite power_law_volts in Hs. lra.
Qed.

(* the helper never sets a voltage below the one for the far limit *)
Lemma volts_ge_volts_hi d : volts c e lo hi hi <= volts c e lo hi d.
Proof.
  adm. apply le_volts. rewrite power_law_volts, (clamp_id lo hi hi) by lra.
  apply clamp_range. lra.
Qed.

(* if the power law at the floor is beyond the far limit, that lowest voltage
   is not below the floor *)
Lemma floor_below_sim_gen : hi <= c * Rpower fl e -> fl <= volts c e lo hi hi.
Proof. adm. intros Hh. apply le_volts. rewrite clamp_id by lra. exact Hh. Qed.

Lemma sim_inverse :
  fl <= volts c e lo hi hi ->
  forall d, reading c e lo hi fl (volts c e lo hi d) = clamp lo hi d.
Proof.
  adm. intros Hf d. rewrite power_law_inside.
  - apply power_law_volts.
  - eapply Rle_trans; [exact Hf | apply volts_ge_volts_hi].
  - rewrite power_law_volts. apply clamp_range. lra.
Qed.

Lemma sim_sensor :
  fl <= volts c e lo hi hi ->
  forall s d, sensor_distance c e lo hi fl (set_distance c e lo hi s d) = clamp lo hi d.
Proof. intros Hf s d. exact (sim_inverse Hf d). Qed.

Lemma sim_after_set :
  fl <= volts c e lo hi hi ->
  forall (s : sim_state) d,
  let s' := set_distance c e lo hi s d in
  get_distance s' = d /\ sensor_distance c e lo hi fl s' = clamp lo hi d.
Proof. intros Hf s d. exact (conj (sim_remembers c e lo hi s d) (sim_sensor Hf s d)). Qed.

(* a later setDistance overrides an earlier one completely (stated for
   admissible parameters like its neighbours, though it holds of any) *)
Lemma sim_last_wins s d1 d2 :
  set_distance c e lo hi (set_distance c e lo hi s d1) d2 = set_distance c e lo hi s d2.
Proof using Hadm. reflexivity. Qed.

(* the shape of the cases of tests/test_distance_sensors.py: a distance below
   the range, one above it, two inside *)
Lemma sim_test_pattern d1 d2 d3 d4 :
  fl <= volts c e lo hi hi -> d1 <= lo -> hi <= d2 -> lo <= d3 <= hi -> lo <= d4 <= hi ->
  let back d := reading c e lo hi fl (volts c e lo hi d) in
  back d1 = lo /\ back d2 = hi /\ back d3 = d3 /\ back d4 = d4.
Proof.
  adm. intros Hf H1 H2 H3 H4 back. unfold back. rewrite !(sim_inverse Hf).
  split; [| split; [| split]].
  - apply clamp_below. exact H1.
  - apply clamp_above; [lra | exact H2].
  - apply clamp_id. exact H3.
  - apply clamp_id. exact H4.
Qed.

Lemma in_range_x v : lo <= reading_x c e lo hi fl v <= hi.
Proof.
  adm. destruct v as [r | |]; cbn [reading_x].
  - apply in_range.
  - apply clamp_range. lra.
  - apply in_range.
Qed.

Lemma reading_pinf : reading_x c e lo hi fl PInf = lo.
Proof. adm. cbn [reading_x]. apply clamp_below. lra. Qed.

Lemma reading_ninf : hi <= c * Rpower fl e -> reading_x c e lo hi fl NInf = hi.
Proof. intros Hf. cbn [reading_x]. apply below_floor_hi; [exact Hf | apply Rle_refl]. Qed.

Lemma antitone_x v1 v2 :
  xle v1 v2 -> reading_x c e lo hi fl v2 <= reading_x c e lo hi fl v1.
Proof.
  destruct v2 as [y | |].
  - destruct v1 as [x | |]; cbn [xle reading_x]; intros H.
    + apply antitone. exact H.
    + contradiction H.
    + (* -inf reads like the floor, and no voltage reads more than the floor *)
      destruct (Rle_dec y fl) as [Hy | Hy].
      * right. apply below_floor. exact Hy.
      * apply antitone. lra.
  - intros _. rewrite reading_pinf. apply in_range_x.
  - destruct v1 as [x | |]; cbn [xle]; intros H.
    + contradiction H.
    + contradiction H.
    + apply Rle_refl.
Qed.

Lemma clamp_x_range d : lo <= clamp_x lo hi d <= hi.
Proof.
  adm. destruct d as [r | |]; cbn [clamp_x].
  - apply clamp_range. lra.
  - apply clamp_range. lra.
  - lra.
Qed.

Lemma clamp_x_pinf : clamp_x lo hi PInf = hi.
Proof. adm. cbn [clamp_x]. apply clamp_id. lra. Qed.

Lemma sim_inverse_x :
  fl <= volts c e lo hi hi ->
  forall d, reading c e lo hi fl (volts_x c e lo hi d) = clamp_x lo hi d.
Proof.
  intros Hf d. unfold volts_x.
  rewrite <- (volts_inside c e lo hi) by apply clamp_x_range.
  rewrite sim_inverse by exact Hf. apply clamp_id, clamp_x_range.
Qed.

Lemma edge_voltages :
  hi <= c * Rpower fl e ->
  (forall v, reading_opt c e lo hi fl v = Some (reading c e lo hi fl v)) /\
  (forall v, v <= fl -> reading c e lo hi fl v = hi) /\
  reading_x c e lo hi fl NInf = hi /\
  reading_x c e lo hi fl PInf = lo.
Proof.
  intros Hf.
  exact (conj reading_total
        (conj (fun v => below_floor_hi v Hf) (conj (reading_ninf Hf) reading_pinf))).
Qed.

Lemma reading_x_total v :
  reading_x_opt c e lo hi fl v = Some (reading_x c e lo hi fl v).
Proof.
  destruct v; cbn [reading_x_opt reading_x];
    [apply reading_total | reflexivity | apply reading_total].
Qed.

(* no exception and the value of the pin-only model, whatever the rails,
   the battery, the enable flags and the rest are *)
Lemma rio_total r :
  rio_distance_opt c e lo hi fl r = Some (reading_x c e lo hi fl (pin r)).
Proof. unfold rio_distance_opt. apply reading_x_total. Qed.

Lemma rio_in_range r :
  exists x, rio_distance_opt c e lo hi fl r = Some x /\ lo <= x <= hi.
Proof. eexists. split; [apply rio_total | apply in_range_x]. Qed.

Lemma rio_antitone r1 r2 :
  xle (pin r1) (pin r2) ->
  rio_distance c e lo hi fl r2 <= rio_distance c e lo hi fl r1.
Proof. unfold rio_distance. apply antitone_x. Qed.

Lemma rio_power_law r v :
  pin r = Fin v -> fl <= v -> lo <= c * Rpower v e <= hi ->
  rio_distance_opt c e lo hi fl r = Some (c * Rpower v e).
Proof.
  intros E Hv H. rewrite rio_total, E. cbn [reading_x]. f_equal.
  apply power_law_inside; assumption.
Qed.

(* the helper on any roboRIO: the sensor reads d clamped, the rails are not
   touched *)
Lemma rio_sim :
  fl <= volts c e lo hi hi ->
  forall r d,
  rio_distance_opt c e lo hi fl (rio_set_distance c e lo hi r d) = Some (clamp_x lo hi d) /\
  same_rails (rio_set_distance c e lo hi r d) r.
Proof.
  intros Hf r d. split.
  - rewrite rio_total. unfold rio_set_distance. cbn [rio_set_pin pin reading_x].
    f_equal. apply sim_inverse_x. exact Hf.
  - apply rio_set_pin_frame.
Qed.

Lemma any_rails :
  fl <= volts c e lo hi hi ->
  forall r : rio,
  (exists x, rio_distance_opt c e lo hi fl r = Some x /\ lo <= x <= hi) /\
  (forall v, pin r = Fin v -> fl <= v -> lo <= c * Rpower v e <= hi ->
     rio_distance_opt c e lo hi fl r = Some (c * Rpower v e)) /\
  (forall d, rio_distance_opt c e lo hi fl (rio_set_distance c e lo hi r (Fin d))
             = Some (clamp lo hi d)).
Proof.
  intros Hf r.
  exact (conj (rio_in_range r)
        (conj (rio_power_law r) (fun d => proj1 (rio_sim Hf r (Fin d))))).
Qed.

(* [x] is what the implementation returned for voltage [v], and is compared
   with the model's reading up to the relative tolerance [tol]: four cases by
   where x and v lie.  The generated files choose among them through the
   [q_*] lemmas of Section Frac, which decide the comparisons between
   literals in Z and leave the one premise about Rpower to [interval]. *)

Variable tol : R.
Hypothesis Htol : 0 <= tol <= 1.

(* all that is used of [tol]: scaling by it shrinks and keeps the sign *)
Lemma tol_scale y : 0 <= y -> 0 <= tol * y <= y.
Proof.
  intros Hy. destruct Htol as [H0 H1]. split.
  - apply Rmult_le_pos; assumption.
  - rewrite <- (Rmult_1_l y) at 2. apply Rmult_le_compat_r; assumption.
Qed.

Lemma close_self y : 0 <= y -> close tol y y.
Proof. intros Hy. pose proof (tol_scale y Hy). apply close_rat. lra. Qed.

(* clamping the reference keeps an in-range value close: where the clamp
   moves p it moves it towards x, and the bounds y -+ tol * y move less *)
Lemma close_clamp x p :
  lo <= x <= hi -> close tol x p -> close tol x (clamp lo hi p).
Proof.
  adm. intros Hx H. apply close_bounds in H. apply close_rat.
  destruct (clamp_cases lo hi p (Rlt_le _ _ Hlh)) as [[Hp ->] | [[Hp ->] | [Hp ->]]].
  - pose proof (tol_scale lo). pose proof (tol_scale (lo - p)). lra.
  - exact H.
  - pose proof (tol_scale hi). pose proof (tol_scale (p - hi)). lra.
Qed.

(* implementation strictly inside, voltage above the floor *)
Lemma corr_mid v x :
  fl <= v -> lo <= x <= hi -> close tol x (c * Rpower v e) ->
  close tol x (reading c e lo hi fl v).
Proof.
  intros Hv Hx H. rewrite reading_above_floor by exact Hv. apply close_clamp; assumption.
Qed.

(* implementation at the far limit: exact if the power law p is beyond it;
   otherwise hi has to be within tolerance of p, hi - p <= tol * p.  The
   premise asks for hi - p <= (tol / 2) * hi instead, which is enough
   because tol <= 1 then puts p above hi / 2: it is one inequality with
   Rpower on one side only, which the generated files hand to [interval]. *)
Lemma corr_hi v x :
  fl <= v -> x = hi -> hi * (1 - tol / 2) <= c * Rpower v e ->
  close tol x (reading c e lo hi fl v).
Proof.
  adm. intros Hv -> H. rewrite reading_above_floor by exact Hv.
  set (p := c * Rpower v e) in *.
  destruct (Rle_dec hi p) as [Hp | Hp].
  - rewrite clamp_above by lra. apply close_self. lra.
  - apply close_clamp; [lra |]. apply close_rat.
    pose proof (tol_scale hi). pose proof (tol_scale (p - hi / 2)). lra.
Qed.

(* implementation at the near limit, likewise *)
Lemma corr_lo v x :
  fl <= v -> x = lo -> c * Rpower v e <= lo * (1 + tol / 2) ->
  close tol x (reading c e lo hi fl v).
Proof.
  adm. intros Hv -> H. rewrite reading_above_floor by exact Hv.
  set (p := c * Rpower v e) in *.
  destruct (Rle_dec p lo) as [Hp | Hp].
  - rewrite clamp_below by exact Hp. apply close_self. lra.
  - apply close_clamp; [lra |]. apply close_rat.
    pose proof (tol_scale p). pose proof (tol_scale (p - lo / 2)). lra.
Qed.

(* voltage at or below the floor (0 V, negative, denormal, -inf) *)
Lemma corr_floor v x :
  hi <= c * Rpower fl e -> v <= fl -> x = hi ->
  close tol x (reading c e lo hi fl v).
Proof.
  adm. intros Hf Hv ->. rewrite below_floor_hi by assumption. apply close_self. lra.
Qed.

(* infinite doubles in the correspondence: +inf V reads lo, -inf V reads hi;
   setDistance(+inf) sets the voltage for hi, setDistance(-inf) the one for lo.
   The generated files pass [Hadm] to each of these, and [Htol] as well to
   the four about [close], needed or not. *)
Lemma corr_v_pinf x : x = lo -> x = reading_x c e lo hi fl PInf.
Proof. intros H. rewrite reading_pinf. exact H. Qed.

Lemma corr_v_ninf x :
  hi <= c * Rpower fl e -> x = hi -> x = reading_x c e lo hi fl NInf.
Proof. intros Hf H. rewrite reading_ninf by exact Hf. exact H. Qed.

Lemma corr_volts_pinf u :
  close tol u (Rpower (hi / c) (1 / e)) -> close tol u (volts_x c e lo hi PInf).
Proof using Hadm Htol. intros H. unfold volts_x. rewrite clamp_x_pinf. exact H. Qed.

Lemma corr_volts_ninf u :
  close tol u (Rpower (lo / c) (1 / e)) -> close tol u (volts_x c e lo hi NInf).
Proof using Hadm Htol. intros H. exact H. Qed.

Lemma corr_clamp_pinf x : close tol x hi -> close tol x (clamp_x lo hi PInf).
Proof using Hadm Htol. intros H. rewrite clamp_x_pinf. exact H. Qed.

Lemma corr_clamp_ninf x : close tol x lo -> close tol x (clamp_x lo hi NInf).
Proof using Hadm Htol. intros H. exact H. Qed.

(* a sample taken on roboRIO [r] whose pin carries v ([Htol] only because the
   generated files pass it) *)
Lemma rio_reads_fin r v x :
  pin r = Fin v -> close tol x (reading c e lo hi fl v) ->
  rio_reads c e lo hi fl tol r x.
Proof using Hadm Htol.
  intros E H. unfold rio_reads. rewrite rio_total, E. exact H.
Qed.

Lemma rio_reads_x r v x :
  pin r = v -> x = reading_x c e lo hi fl v ->
  rio_distance_opt c e lo hi fl r = Some x.
Proof. intros E H. rewrite rio_total, E, H. reflexivity. Qed.

End Generic.

Lemma A02_admissible : admissible A02_c A02_e A02_lo A02_hi floor_volts.
Proof. unfold admissible, A02_c, A02_e, A02_lo, A02_hi, floor_volts. lra. Qed.
Lemma A21_admissible : admissible A21_c A21_e A21_lo A21_hi floor_volts.
Proof. unfold admissible, A21_c, A21_e, A21_lo, A21_hi, floor_volts. lra. Qed.
Lemma A41_admissible : admissible A41_c A41_e A41_lo A41_hi floor_volts.
Proof. unfold admissible, A41_c, A41_e, A41_lo, A41_hi, floor_volts. lra. Qed.

Lemma ln_floor_volts : ln floor_volts <= - 2.
Proof.
  replace floor_volts with (/ 100000) by (unfold floor_volts; lra).
  rewrite ln_Rinv by lra.
  (* 2 = ln (exp 2) and exp 2 = exp 1 * exp 1 <= 9 *)
  enough (H : ln (exp 2) < ln 100000) by (rewrite ln_exp in H; lra).
  apply ln_increasing; [apply exp_pos |].
  replace 2 with (1 + 1) by ring. rewrite exp_plus.
  pose proof exp_le_3 as H3. pose proof (exp_pos 1) as Hp. nra.
Qed.

(* the power law at a floor fl with ln fl <= -2 exceeds hi as soon as
   hi / c <= 1 + 2 * (- e) *)
Lemma floor_reads_hi_gen c e hi fl :
  0 < c -> e < 0 -> ln fl <= - 2 -> hi <= c * (1 + 2 * (- e)) ->
  hi <= c * Rpower fl e.
Proof.
  intros Hc He Hl Hh. unfold Rpower.
  assert (H1 : 2 * (- e) <= e * ln fl).
  { assert (0 <= (- e) * (- ln fl - 2)) by (apply Rmult_le_pos; lra). lra. }
  pose proof (exp_ineq1_le (2 * (- e))) as H2.
  pose proof (exp_le_mono _ _ H1) as H3.
  assert (c * (1 + 2 * (- e)) <= c * exp (e * ln fl))
    by (apply Rmult_le_compat_l; lra).
  lra.
Qed.

(* the power law at the floor is far beyond the far limit
   (1.8e7 cm, 3.6e7 cm, 1.05e6 cm against 145, 80, 35) *)
Lemma A02_floor_reads_hi : A02_hi <= A02_c * Rpower floor_volts A02_e.
Proof.
  apply floor_reads_hi_gen; [| | exact ln_floor_volts |]; unfold A02_c, A02_e, A02_hi; lra.
Qed.
Lemma A21_floor_reads_hi : A21_hi <= A21_c * Rpower floor_volts A21_e.
Proof.
  apply floor_reads_hi_gen; [| | exact ln_floor_volts |]; unfold A21_c, A21_e, A21_hi; lra.
Qed.
Lemma A41_floor_reads_hi : A41_hi <= A41_c * Rpower floor_volts A41_e.
Proof.
  apply floor_reads_hi_gen; [| | exact ln_floor_volts |]; unfold A41_c, A41_e, A41_hi; lra.
Qed.

(* the helper's lowest voltage (0.461 V, 0.405 V, 0.360 V) against the floor
   0.00001 V *)
Lemma A02_floor_below_sim : floor_volts <= volts A02_c A02_e A02_lo A02_hi A02_hi.
Proof. exact (floor_below_sim_gen _ _ _ _ _ A02_admissible A02_floor_reads_hi). Qed.
Lemma A21_floor_below_sim : floor_volts <= volts A21_c A21_e A21_lo A21_hi A21_hi.
Proof. exact (floor_below_sim_gen _ _ _ _ _ A21_admissible A21_floor_reads_hi). Qed.
Lemma A41_floor_below_sim : floor_volts <= volts A41_c A41_e A41_lo A41_hi A41_hi.
Proof. exact (floor_below_sim_gen _ _ _ _ _ A41_admissible A41_floor_reads_hi). Qed.

Lemma ctol_ok : 0 <= ctol <= 1.
Proof. unfold ctol. lra. Qed.

(* Concrete values, the non-vacuity witnesses of Properties/C17.v: at 1 V
   every sensor reads its coefficient, strictly inside its range *)
Lemma A02_at_1V : reading_A02 1 = 62.28.
Proof. apply reading_at_1V; unfold floor_volts, A02_lo, A02_c, A02_hi; lra. Qed.
Lemma A21_at_1V : reading_A21 1 = 26.449.
Proof. apply reading_at_1V; unfold floor_volts, A21_lo, A21_c, A21_hi; lra. Qed.
Lemma A41_at_1V : reading_A41 1 = 12.84.
Proof. apply reading_at_1V; unfold floor_volts, A41_lo, A41_c, A41_hi; lra. Qed.

Lemma A02_at_0V : reading_A02 0 = 145.
Proof.
  apply (below_floor_hi _ _ _ _ _ A02_admissible _ A02_floor_reads_hi).
  unfold floor_volts; lra.
Qed.

Lemma A02_strict_example : reading_A02 1.5 < reading_A02 1.
Proof.
  apply (strictly_decreasing_inside _ _ _ _ _ A02_admissible).
  - unfold floor_volts; lra.
  - lra.
  - (* 62.28 * 1.5 ^ -1.092 >= 62.28 / 1.5 ^ 2 = 27.68 >= 22.5 *)
    assert (H : Rpower 1.5 (- (1 + 1)) <= Rpower 1.5 A02_e)
      by (apply Rle_Rpower; unfold A02_e; lra).
    rewrite Rpower_Ropp, Rpower_plus, Rpower_1 in H by lra.
    unfold A02_lo, A02_c. lra.
  - rewrite Rpower_base_1. unfold A02_c, A02_hi. lra.
Qed.

(* the twelve cases of tests/test_distance_sensors.py, exactly *)
Lemma A02_sim_examples :
  reading_A02 (volts_A02 10) = 22.5 /\ reading_A02 (volts_A02 200) = 145 /\
  reading_A02 (volts_A02 50) = 50 /\ reading_A02 (volts_A02 100) = 100.
Proof.
  apply (sim_test_pattern _ _ _ _ _ A02_admissible);
    [exact A02_floor_below_sim | unfold A02_lo, A02_hi; lra ..].
Qed.
Lemma A21_sim_examples :
  reading_A21 (volts_A21 5) = 10 /\ reading_A21 (volts_A21 100) = 80 /\
  reading_A21 (volts_A21 30) = 30 /\ reading_A21 (volts_A21 60) = 60.
Proof.
  apply (sim_test_pattern _ _ _ _ _ A21_admissible);
    [exact A21_floor_below_sim | unfold A21_lo, A21_hi; lra ..].
Qed.
Lemma A41_sim_examples :
  reading_A41 (volts_A41 2) = 4.5 /\ reading_A41 (volts_A41 50) = 35 /\
  reading_A41 (volts_A41 10) = 10 /\ reading_A41 (volts_A41 25) = 25.
Proof.
  apply (sim_test_pattern _ _ _ _ _ A41_admissible);
    [exact A41_floor_below_sim | unfold A41_lo, A41_hi; lra ..].
Qed.

(* The correspondence lemmas for doubles written [fr n d]: the side conditions
   between such literals are integer comparisons ([fr_leb], [fr_eqb],
   [fr_closeb]) that evaluation decides, lra being slow on 53-bit numerators;
   only the Rpower premise is left to [interval]. *)

(* the shape of every emitted double: IZR n / IZR (Zpos d) *)
Definition fr (n : Z) (d : positive) : R := IZR n / IZR (Zpos d).

Definition fr_leb (a : Z) (b : positive) (c : Z) (d : positive) : bool :=
  (a * Zpos d <=? c * Zpos b)%Z.
Definition fr_eqb (a : Z) (b : positive) (c : Z) (d : positive) : bool :=
  (a * Zpos d =? c * Zpos b)%Z.
(* |x - y| <= t * y *)
Definition fr_closeb (tn : Z) (td : positive) (xn : Z) (xd : positive) (yn : Z) (yd : positive) : bool :=
  (Z.abs (xn * Zpos yd - yn * Zpos xd) * Zpos td <=? tn * yn * Zpos xd)%Z.

Lemma IZR_pos_pos p : 0 < IZR (Zpos p).
Proof. apply IZR_lt. reflexivity. Qed.

Lemma fr_num n d : fr n d * IZR (Zpos d) = IZR n.
Proof. unfold fr. field. apply Rgt_not_eq, IZR_pos_pos. Qed.

(* the integer conditions become real ones by writing every numerator as
   fraction times denominator and cancelling the positive denominators *)
Lemma fr_le a b c d : fr_leb a b c d = true -> fr a b <= fr c d.
Proof.
  unfold fr_leb. intros H. apply Z.leb_le, IZR_le in H. rewrite !mult_IZR in H.
  rewrite <- (fr_num a b), <- (fr_num c d) in H.
  pose proof (IZR_pos_pos b) as Hb. pose proof (IZR_pos_pos d) as Hd.
  apply (Rmult_le_reg_r (IZR (Zpos b) * IZR (Zpos d))); [apply Rmult_lt_0_compat; assumption |].
  lra.
Qed.

Lemma fr_eq a b c d : fr_eqb a b c d = true -> fr a b = fr c d.
Proof.
  unfold fr_eqb. intros H. apply Z.eqb_eq in H.
  apply Rle_antisym; apply fr_le; unfold fr_leb; apply Z.leb_le; lia.
Qed.

Lemma fr_close tn td xn xd yn yd :
  fr_closeb tn td xn xd yn yd = true -> close (fr tn td) (fr xn xd) (fr yn yd).
Proof.
  unfold fr_closeb, close. intros H. apply Z.leb_le, IZR_le in H.
  rewrite !mult_IZR, abs_IZR, minus_IZR, !mult_IZR in H.
  rewrite <- (fr_num tn td), <- (fr_num xn xd), <- (fr_num yn yd) in H.
  pose proof (IZR_pos_pos td) as Ht. pose proof (IZR_pos_pos xd) as Hx.
  pose proof (IZR_pos_pos yd) as Hy.
  set (T := IZR (Zpos td)) in *. set (X := IZR (Zpos xd)) in *. set (Y := IZR (Zpos yd)) in *.
  replace (fr xn xd * X * Y - fr yn yd * Y * X) with ((fr xn xd - fr yn yd) * (X * Y)) in H by ring.
  rewrite Rabs_mult, (Rabs_pos_eq (X * Y)) in H by (apply Rlt_le, Rmult_lt_0_compat; assumption).
  apply (Rmult_le_reg_r (X * Y * T)); [repeat apply Rmult_lt_0_compat; assumption |].
  lra.
Qed.

Section Frac.
Variables c e lo hi fl : R.
Hypothesis Hadm : admissible c e lo hi fl.
Variable tol : R.
Hypothesis Htol : 0 <= tol <= 1.
Variables lon hin fln tn : Z.
Variables lod hid fld td : positive.
Hypothesis Elo : lo = fr lon lod.
Hypothesis Ehi : hi = fr hin hid.
Hypothesis Efl : fl = fr fln fld.
Hypothesis Etol : tol = fr tn td.

(* Which hypotheses a lemma of this section takes (the instances below are
   built by position): [Hadm] and [Htol] always, needed or not; of lo, hi,
   fl, tol those that its boolean premise compares with [fr_leb] / [fr_eqb]
   / [fr_closeb]: first their numerators, then their denominators, then
   their equations, each in that order.  A bound that the statement merely
   mentions ([tol] in [q_mid], [lo] in [q_volts_hi]) brings nothing.  For
   the first four that is what their proofs use; the others say it with
   [Proof using]. *)

Lemma q_mid vn vd xn xd :
  (fr_leb fln fld vn vd && fr_leb lon lod xn xd && fr_leb xn xd hin hid)%bool = true ->
  close tol (fr xn xd) (c * Rpower (fr vn vd) e) ->
  close tol (fr xn xd) (reading c e lo hi fl (fr vn vd)).
Proof.
  intros [[Bv Bl]%andb_prop Bh]%andb_prop H. apply (corr_mid _ _ _ _ _ Hadm _ Htol).
  - rewrite Efl. apply fr_le. exact Bv.
  - rewrite Elo, Ehi. split; apply fr_le; assumption.
  - exact H.
Qed.

Lemma q_hi vn vd xn xd :
  (fr_leb fln fld vn vd && fr_eqb xn xd hin hid)%bool = true ->
  hi * (1 - tol / 2) <= c * Rpower (fr vn vd) e ->
  close tol (fr xn xd) (reading c e lo hi fl (fr vn vd)).
Proof.
  intros [Bv Bx]%andb_prop H. apply (corr_hi _ _ _ _ _ Hadm _ Htol).
  - rewrite Efl. apply fr_le. exact Bv.
  - rewrite Ehi. apply fr_eq. exact Bx.
  - exact H.
Qed.

Lemma q_lo vn vd xn xd :
  (fr_leb fln fld vn vd && fr_eqb xn xd lon lod)%bool = true ->
  c * Rpower (fr vn vd) e <= lo * (1 + tol / 2) ->
  close tol (fr xn xd) (reading c e lo hi fl (fr vn vd)).
Proof.
  intros [Bv Bx]%andb_prop H. apply (corr_lo _ _ _ _ _ Hadm _ Htol).
  - rewrite Efl. apply fr_le. exact Bv.
  - rewrite Elo. apply fr_eq. exact Bx.
  - exact H.
Qed.

Lemma q_floor vn vd xn xd :
  hi <= c * Rpower fl e ->
  (fr_leb vn vd fln fld && fr_eqb xn xd hin hid)%bool = true ->
  close tol (fr xn xd) (reading c e lo hi fl (fr vn vd)).
Proof.
  intros Hf [Bv Bx]%andb_prop. apply (corr_floor _ _ _ _ _ Hadm _ Htol _ _ Hf).
  - rewrite Efl. apply fr_le. exact Bv.
  - rewrite Ehi. apply fr_eq. exact Bx.
Qed.

(* the voltage [u] the helper set for distance [d] against [volts] *)
Lemma q_volts_mid dn dd un ud :
  (fr_leb lon lod dn dd && fr_leb dn dd hin hid)%bool = true ->
  close tol (fr un ud) (Rpower (fr dn dd / c) (1 / e)) ->
  close tol (fr un ud) (volts c e lo hi (fr dn dd)).
Proof using Hadm Htol Elo Ehi.
  intros [Bl Bh]%andb_prop H. rewrite volts_inside; [exact H |].
  rewrite Elo, Ehi. split; apply fr_le; assumption.
Qed.

Lemma q_volts_hi dn dd un ud :
  fr_leb hin hid dn dd = true ->
  close tol (fr un ud) (Rpower (hi / c) (1 / e)) ->
  close tol (fr un ud) (volts c e lo hi (fr dn dd)).
Proof using Hadm Htol Ehi.
  pose proof Hadm as (_ & _ & _ & Hlh & _).
  intros B H. rewrite volts_above; [exact H | lra |].
  rewrite Ehi. apply fr_le. exact B.
Qed.

Lemma q_volts_lo dn dd un ud :
  fr_leb dn dd lon lod = true ->
  close tol (fr un ud) (Rpower (lo / c) (1 / e)) ->
  close tol (fr un ud) (volts c e lo hi (fr dn dd)).
Proof using Hadm Htol Elo.
  intros B H. rewrite volts_below; [exact H |].
  rewrite Elo. apply fr_le. exact B.
Qed.

(* the sensor reading [x] after setDistance(d) against the clamped distance *)
Lemma q_clamp_mid dn dd xn xd :
  (fr_leb lon lod dn dd && fr_leb dn dd hin hid && fr_closeb tn td xn xd dn dd)%bool = true ->
  close tol (fr xn xd) (clamp lo hi (fr dn dd)).
Proof using Hadm Htol Elo Ehi Etol.
  intros [[Bl Bh]%andb_prop Bx]%andb_prop. rewrite clamp_id.
  - rewrite Etol. apply fr_close. exact Bx.
  - rewrite Elo, Ehi. split; apply fr_le; assumption.
Qed.

Lemma q_clamp_hi dn dd xn xd :
  (fr_leb hin hid dn dd && fr_closeb tn td xn xd hin hid)%bool = true ->
  close tol (fr xn xd) (clamp lo hi (fr dn dd)).
Proof using Hadm Htol Ehi Etol.
  pose proof Hadm as (_ & _ & _ & Hlh & _).
  intros [Bd Bx]%andb_prop. rewrite clamp_above.
  - rewrite Etol, Ehi. apply fr_close. exact Bx.
  - lra.
  - rewrite Ehi. apply fr_le. exact Bd.
Qed.

Lemma q_clamp_lo dn dd xn xd :
  (fr_leb dn dd lon lod && fr_closeb tn td xn xd lon lod)%bool = true ->
  close tol (fr xn xd) (clamp lo hi (fr dn dd)).
Proof using Hadm Htol Elo Etol.
  intros [Bd Bx]%andb_prop. rewrite clamp_below.
  - rewrite Etol, Elo. apply fr_close. exact Bx.
  - rewrite Elo. apply fr_le. exact Bd.
Qed.

End Frac.

Lemma floor_volts_fr : floor_volts = fr 1 100000.
Proof. unfold floor_volts, fr. lra. Qed.
Lemma ctol_fr : ctol = fr 1 1000000000000.
Proof. unfold ctol, fr. lra. Qed.
Lemma A02_lo_fr : A02_lo = fr 45 2.  Proof. unfold A02_lo, fr. lra. Qed.
Lemma A02_hi_fr : A02_hi = fr 145 1. Proof. unfold A02_hi, fr. lra. Qed.
Lemma A21_lo_fr : A21_lo = fr 10 1.  Proof. unfold A21_lo, fr. lra. Qed.
Lemma A21_hi_fr : A21_hi = fr 80 1.  Proof. unfold A21_hi, fr. lra. Qed.
Lemma A41_lo_fr : A41_lo = fr 9 2.   Proof. unfold A41_lo, fr. lra. Qed.
Lemma A41_hi_fr : A41_hi = fr 35 1.  Proof. unfold A41_hi, fr. lra. Qed.

(* the instances used by the generated files: A02_q_mid vn vd xn xd ... *)
Definition A02_q_mid := q_mid _ _ _ _ _ A02_admissible _ ctol_ok _ _ _ _ _ _ A02_lo_fr A02_hi_fr floor_volts_fr.
Definition A02_q_hi := q_hi _ _ _ _ _ A02_admissible _ ctol_ok _ _ _ _ A02_hi_fr floor_volts_fr.
Definition A02_q_lo := q_lo _ _ _ _ _ A02_admissible _ ctol_ok _ _ _ _ A02_lo_fr floor_volts_fr.
Definition A02_q_floor := fun vn vd xn xd => q_floor _ _ _ _ _ A02_admissible _ ctol_ok _ _ _ _ A02_hi_fr floor_volts_fr vn vd xn xd A02_floor_reads_hi.
Definition A02_q_volts_mid := q_volts_mid _ _ _ _ _ A02_admissible _ ctol_ok _ _ _ _ A02_lo_fr A02_hi_fr.
Definition A02_q_volts_hi := q_volts_hi _ _ _ _ _ A02_admissible _ ctol_ok _ _ A02_hi_fr.
Definition A02_q_volts_lo := q_volts_lo _ _ _ _ _ A02_admissible _ ctol_ok _ _ A02_lo_fr.
Definition A02_q_clamp_mid := q_clamp_mid _ _ _ _ _ A02_admissible _ ctol_ok _ _ _ _ _ _ A02_lo_fr A02_hi_fr ctol_fr.
Definition A02_q_clamp_hi := q_clamp_hi _ _ _ _ _ A02_admissible _ ctol_ok _ _ _ _ A02_hi_fr ctol_fr.
Definition A02_q_clamp_lo := q_clamp_lo _ _ _ _ _ A02_admissible _ ctol_ok _ _ _ _ A02_lo_fr ctol_fr.
Definition A21_q_mid := q_mid _ _ _ _ _ A21_admissible _ ctol_ok _ _ _ _ _ _ A21_lo_fr A21_hi_fr floor_volts_fr.
Definition A21_q_hi := q_hi _ _ _ _ _ A21_admissible _ ctol_ok _ _ _ _ A21_hi_fr floor_volts_fr.
Definition A21_q_lo := q_lo _ _ _ _ _ A21_admissible _ ctol_ok _ _ _ _ A21_lo_fr floor_volts_fr.
Definition A21_q_floor := fun vn vd xn xd => q_floor _ _ _ _ _ A21_admissible _ ctol_ok _ _ _ _ A21_hi_fr floor_volts_fr vn vd xn xd A21_floor_reads_hi.
Definition A21_q_volts_mid := q_volts_mid _ _ _ _ _ A21_admissible _ ctol_ok _ _ _ _ A21_lo_fr A21_hi_fr.
Definition A21_q_volts_hi := q_volts_hi _ _ _ _ _ A21_admissible _ ctol_ok _ _ A21_hi_fr.
Definition A21_q_volts_lo := q_volts_lo _ _ _ _ _ A21_admissible _ ctol_ok _ _ A21_lo_fr.
Definition A21_q_clamp_mid := q_clamp_mid _ _ _ _ _ A21_admissible _ ctol_ok _ _ _ _ _ _ A21_lo_fr A21_hi_fr ctol_fr.
Definition A21_q_clamp_hi := q_clamp_hi _ _ _ _ _ A21_admissible _ ctol_ok _ _ _ _ A21_hi_fr ctol_fr.
Definition A21_q_clamp_lo := q_clamp_lo _ _ _ _ _ A21_admissible _ ctol_ok _ _ _ _ A21_lo_fr ctol_fr.
Definition A41_q_mid := q_mid _ _ _ _ _ A41_admissible _ ctol_ok _ _ _ _ _ _ A41_lo_fr A41_hi_fr floor_volts_fr.
Definition A41_q_hi := q_hi _ _ _ _ _ A41_admissible _ ctol_ok _ _ _ _ A41_hi_fr floor_volts_fr.
Definition A41_q_lo := q_lo _ _ _ _ _ A41_admissible _ ctol_ok _ _ _ _ A41_lo_fr floor_volts_fr.
Definition A41_q_floor := fun vn vd xn xd => q_floor _ _ _ _ _ A41_admissible _ ctol_ok _ _ _ _ A41_hi_fr floor_volts_fr vn vd xn xd A41_floor_reads_hi.
Definition A41_q_volts_mid := q_volts_mid _ _ _ _ _ A41_admissible _ ctol_ok _ _ _ _ A41_lo_fr A41_hi_fr.
Definition A41_q_volts_hi := q_volts_hi _ _ _ _ _ A41_admissible _ ctol_ok _ _ A41_hi_fr.
Definition A41_q_volts_lo := q_volts_lo _ _ _ _ _ A41_admissible _ ctol_ok _ _ A41_lo_fr.
Definition A41_q_clamp_mid := q_clamp_mid _ _ _ _ _ A41_admissible _ ctol_ok _ _ _ _ _ _ A41_lo_fr A41_hi_fr ctol_fr.
Definition A41_q_clamp_hi := q_clamp_hi _ _ _ _ _ A41_admissible _ ctol_ok _ _ _ _ A41_hi_fr ctol_fr.
Definition A41_q_clamp_lo := q_clamp_lo _ _ _ _ _ A41_admissible _ ctol_ok _ _ _ _ A41_lo_fr ctol_fr.

(* samples taken on a whole simulated roboRIO *)
Definition A02_rio_fin := rio_reads_fin _ _ _ _ _ A02_admissible _ ctol_ok.
Definition A21_rio_fin := rio_reads_fin _ _ _ _ _ A21_admissible _ ctol_ok.
Definition A41_rio_fin := rio_reads_fin _ _ _ _ _ A41_admissible _ ctol_ok.
Definition A02_rio_x := rio_reads_x _ _ _ _ _ A02_admissible.
Definition A21_rio_x := rio_reads_x _ _ _ _ _ A21_admissible.
Definition A41_rio_x := rio_reads_x _ _ _ _ _ A41_admissible.

(* non-vacuity: 1 V on the pin reads the coefficient on every roboRIO *)
Lemma A21_rio_at_1V u5 u3 u6 vb a5 a3 a6 ax :
  rio_distance_opt A21_c A21_e A21_lo A21_hi floor_volts
    {| pin := Fin 1; user5V := u5; user3V3 := u3; user6V := u6; vin := vb;
       active5V := a5; active3V3 := a3; active6V := a6; aux := ax |} = Some 26.449.
Proof.
  rewrite (rio_total _ _ _ _ _ A21_admissible). cbn [pin reading_x].
  f_equal. exact A21_at_1V.
Qed.
