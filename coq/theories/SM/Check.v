(* Boolean versions of the side conditions (usage contract, well-formed shape),
   with soundness lemmas, so that concrete instances can be discharged by
   vm_compute; and In-style readings of the Forall-style results. *)
From Coq Require Import ZArith List Bool Lia.
From RecordUpdate Require Import RecordSet.
Import ListNotations RecordSetNotations.
From RV Require Import SM.Model SM.Basics SM.Invariants.
Open Scope Z_scope.

Definition okevb (e : event) : bool :=
  match e with EvErr | EvOff | EvBack => false | _ => true end.
Definition okb (t : list event) : bool := forallb okevb t.

Lemma okb_ok t : okb t = true -> ok t.
Proof.
  unfold okb, ok. rewrite forallb_forall, Forall_forall. intros H e Hin.
  specialize (H e Hin). destruct e; cbn in *; auto; discriminate.
Qed.

Definition wf_shapeb (sh : shape) : bool :=
  is_state sh (sh_first sh) && negb (is_default sh (sh_first sh))
  && forallb (fun p => match d_next (snd p) with Some n => negb (is_default sh n) | None => true end) (sh_states sh)
  && match sh_default sh with
     | Some d => match lookup sh d with Some dc => negb (d_timed dc) | None => true end
     | None => true
     end.

Lemma lookup_in sh s d : lookup sh s = Some d -> exists s', In (s', d) (sh_states sh).
Proof.
  unfold lookup. destruct (find _ _) as [[s' d']|] eqn:E; cbn; [|discriminate].
  intros [= <-]. apply find_some in E. exists s'. tauto.
Qed.

Lemma wf_shapeb_sound sh : wf_shapeb sh = true -> wf_shape sh.
Proof.
  unfold wf_shapeb, wf_shape. rewrite !andb_true_iff. intros [[[H1 H2] H3] H4].
  split; [exact H1|]. split; [apply negb_true_iff, H2|]. split.
  - intros s d n Hl Hn. destruct (lookup_in sh s d Hl) as [s' Hin].
    rewrite forallb_forall in H3. specialize (H3 _ Hin). cbn in H3. rewrite Hn in H3.
    apply negb_true_iff, H3.
  - intros d dc Hd Hl. rewrite Hd, Hl in H4. apply negb_true_iff, H4.
Qed.

(* quiet, nonneg, default_call_ev: what holds of every event of a trace, read at its calls *)
Lemma calls_in (P : event -> Prop) t : Forall P t ->
  forall s tm stm i e, In (EvCall s tm stm i e) t -> P (EvCall s tm stm i e).
Proof. rewrite Forall_forall. intros H s tm stm i e Hin. exact (H _ Hin). Qed.
