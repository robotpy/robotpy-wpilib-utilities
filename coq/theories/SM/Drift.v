(* C02: a continuously engaged machine whose state functions request no
   transition enters each state exactly at the previous state's expiry instant
   -- for every pattern of iteration instants (long pauses, readings landing
   exactly on an expiry), across cycle restarts: the chain never drifts. *)
From Coq Require Import ZArith List Bool Lia.
From RecordUpdate Require Import RecordSet.
Import ListNotations RecordSetNotations.
From RV Require Import SM.Model SM.Basics SM.Engage SM.Invariants SM.Stop SM.Timing.
Open Scope Z_scope.

(* state functions that do nothing *)
Definition body0 : nat -> name -> Z -> Z -> bool -> list action := fun _ _ _ _ _ => [].

(* engage(); execute() at each instant *)
Definition continuous (ts : list Z) : list op :=
  flat_map (fun t => [Engage None false; Execute t]) ts.

(* every state entry (EvBk s entry expiry, absolute instants) starts exactly at
   the expiry of the entry before it *)
Fixpoint chain (last : option Z) (t : list event) : Prop :=
  match t with
  | [] => True
  | EvBk _ a e :: r => (match last with Some x => a = x | None => True end) /\ chain (Some e) r
  | _ :: r => chain last r
  end.
Fixpoint chain_end (last : option Z) (t : list event) : option Z :=
  match t with
  | [] => last
  | EvBk _ _ e :: r => chain_end (Some e) r
  | _ :: r => chain_end last r
  end.

Lemma chain_app l a b : chain l (a ++ b) <-> chain l a /\ chain (chain_end l a) b.
Proof.
  revert l. induction a as [|e a IH]; intros l; cbn [app chain chain_end]; [tauto|].
  destruct e; try apply IH. rewrite IH. tauto.
Qed.
Lemma chain_end_app l a b : chain_end l (a ++ b) = chain_end (chain_end l a) b.
Proof. revert l. induction a as [|e a IH]; intros l; cbn; [reflexivity|]. destruct e; apply IH. Qed.

Fixpoint mono_from (c : Z) (ts : list Z) : Prop :=
  match ts with [] => True | t :: r => c <= t /\ mono_from t r end.

Section P.
Variable sh : shape.
Hypothesis Hwf : wf_shape sh.
Hypothesis Hplain : sh_auto sh = false.

(* the current state has run; [last] is its absolute expiry instant *)
Definition R (m : sm) (last : option Z) : Prop :=
  Inv sh m /\ engaged m = true /\ should m = false /\
  exists s, cur m = Some s /\ ran (sdat m s) = true /\ last = Some (start m + st_exp (sdat m s)).

(* R holds again once a state whose bookkeeping is done has been called *)
Lemma R_called mcall s d : Inv sh (mcall <| ncall := S (ncall mcall) |> <| should := false |>) ->
  engaged mcall = true -> cur mcall = Some s -> sdat mcall s = d -> ran d = true ->
  R (mcall <| ncall := S (ncall mcall) |> <| should := false |>) (Some (start mcall + st_exp d)).
Proof.
  intros HI He Hc <- Hr. split; [exact HI|]. split; [exact He|]. split; [reflexivity|]. exists s. auto.
Qed.

Lemma finish_call0 nested mcall s tm stm init pre :
  finish_call sh body0 nested mcall s tm stm init pre =
  (mcall <| ncall := S (ncall mcall) |> <| should := false |>, pre ++ [EvCall s tm stm init (engaged mcall)]).
Proof. reflexivity. Qed.

Lemma not_at_default m s : cur m = Some s -> is_default sh s = false -> at_default sh m = false.
Proof.
  intros Hc Hd. unfold at_default. rewrite Hc. unfold is_default, is_some_eq in Hd.
  destruct (sh_default sh) as [d|]; [|reflexivity]. rewrite Nat.eqb_sym. exact Hd.
Qed.

Lemma round fuel m last t : R m last -> clk m <= t ->
  let '(m1, e1) := step sh body0 (S fuel) m (Engage None false) in
  let '(m2, e2) := step sh body0 (S fuel) m1 (Execute t) in
  ok (e1 ++ e2) ->
  R m2 (chain_end last (e1 ++ e2)) /\ chain last (e1 ++ e2) /\ clk m2 = t.
Proof.
  intros (HI & He & Hs & s & Hc & Hr & Hlast) Hclk.
  destruct (running_status sh m HI He) as (s' & Hc' & Hnt & Hds). rewrite Hc in Hc'. injection Hc' as <-.
  cbn [step].
  assert (Heng : engage sh m None false = (m <| should := true |>, [])).
  { rewrite engage_eq, Hc, (not_at_default m s Hc Hds). reflexivity. }
  rewrite Heng. set (m' := m <| should := true |>).
  assert (HI' : Inv sh m').
  { pose proof (engage_inv sh m None false HI) as H. rewrite Heng in H. apply H. constructor. }
  pose proof (exec_inv sh body0 (S fuel) m' t Hwf HI') as Hinv.
  cbn [exec] in *.
  pose proof (exec_step_ok_selected sh body0 (exec sh body0 fuel) m' t) as Hoksel.
  destruct (exec_step sh body0 (exec sh body0 fuel) m' t) as [m2 e2] eqn:Ex.
  cbn [fst snd app] in *. intros Hok. destruct (Hinv Hok) as (HI2 & _ & _). clear Hinv.
  destruct (Z_le_gt_dec (t - start m) (st_exp (sdat m s))) as [Hle|Hgt].
  - (* the state is held *)
    rewrite (holds_until_expiry_eq sh body0 (exec sh body0 fuel) m' t s He Hc Hr Hle eq_refl Hclk) in Ex.
    rewrite finish_call0 in Ex. injection Ex as <- <-.
    split; [|split; [exact I | reflexivity]].
    cbn [app chain_end]. rewrite Hlast. exact (R_called _ s _ HI2 He Hc eq_refl Hr).
  - (* it has expired *)
    apply Z.gt_lt in Hgt.
    assert (Hexp : expired (m' <| clk := t |>) t s) by (split; [exact Hc | split; [exact Hr | exact Hgt]]).
    assert (Hoke : ok (s_ev (expire sh (m' <| clk := t |>) t))).
    { apply (select_ok sh). rewrite <- (latch_engaged_id (m' <| clk := t |>) t) by exact He.
      (* unfolded in the goal, not in the hypothesis, which is slow to check (see Basics.exec_step_eq) *)
      revert Hoksel. unfold selected. intros Hoksel.
      apply Hoksel; [unfold skips; cbn; rewrite He; reflexivity | exact Hok]. }
    destruct (expired_ok sh _ t s Hexp Hoke) as (dc & Hlk & Htd & [Hn|(n & Hn & Hsn)]).
    + rewrite (expiry_cycles_eq sh body0 (exec sh body0 fuel) m' t s dc
                 Hplain eq_refl He Hc Hr Hgt Hlk Htd Hn Hclk) in Ex.
      rewrite finish_call0 in Ex. injection Ex as <- <-.
      split; [|split; [|exact (done_clk sh (m' <| clk := t |>))]].
      * exact (R_called _ (sh_first sh) _ HI2 eq_refl eq_refl (bk_m_sdat sh _ _ _) eq_refl).
      * (* the first state is entered where the new clock frame begins: at the expiry instant *)
        cbn [app chain bk_ev]. rewrite Hlast. split; [apply Z.add_0_r | exact I].
    + rewrite (expiry_hands_over_eq sh body0 (exec sh body0 fuel) m' t s dc n
                 He Hc Hr Hgt Hlk Htd Hn Hsn eq_refl Hclk) in Ex.
      rewrite finish_call0 in Ex. injection Ex as <- <-.
      split; [|split; [|reflexivity]].
      * exact (R_called _ n _ HI2 He eq_refl (bk_m_sdat sh _ _ _) eq_refl).
      * cbn [app chain bk_ev]. rewrite Hlast. split; [reflexivity | exact I].
Qed.

(* over any number of iterations *)
Theorem chain_continuous fuel ts : forall m last, R m last -> mono_from (clk m) ts ->
  ok (concat (snd (run sh body0 (S fuel) m (continuous ts)))) ->
  chain last (concat (snd (run sh body0 (S fuel) m (continuous ts)))).
Proof.
  induction ts as [|t r IH]; intros m last HR Hm; [intros _; exact I|]. destruct Hm as [Hct Hm].
  change (continuous (t :: r)) with (Engage None false :: Execute t :: continuous r).
  rewrite !run_cons_snd, app_assoc. generalize (round fuel m last t HR Hct).
  destruct (step sh body0 (S fuel) m (Engage None false)) as [m1 e1]. cbn [fst snd].
  destruct (step sh body0 (S fuel) m1 (Execute t)) as [m2 e2]. cbn [fst snd].
  intros Hround Hok. apply ok_app in Hok. destruct Hok as [Hok1 Hok2].
  destruct (Hround Hok1) as (HR2 & Hch & Hclk2).
  apply chain_app. split; [exact Hch|].
  apply IH; [exact HR2 | rewrite Hclk2; exact Hm | exact Hok2].
Qed.

(* ... starting from a stopped machine: the first state is entered at the first
   iteration instant, and every later entry chains on the previous expiry *)
Theorem no_drift fuel m t ts :
  Idle sh m -> clk m <= t -> mono_from t ts ->
  ok (concat (snd (run sh body0 (S fuel) m (continuous (t :: ts))))) ->
  exists e rest,
    concat (snd (run sh body0 (S fuel) m (continuous (t :: ts)))) =
      EvEnter (sh_first sh) :: EvBk (sh_first sh) t e :: rest /\
    chain (Some e) rest.
Proof.
  intros (HI & He & Hs) Hclk Hm.
  destruct Hwf as (Hw1 & Hw2 & _).
  destruct (stopped_status sh m HI He Hs) as [_ Hidle].
  destruct (restart_fresh_eq sh body0 (exec sh body0 fuel) m t None false He Hidle Hclk Hw1 Hw2) as [Heng Hex].
  rewrite finish_call0 in Hex.
  set (m1 := next_state (m <| should := true |>) (sh_first sh)) in *.
  assert (HI1 : Inv sh m1).
  { pose proof (engage_inv sh m None false HI) as H. rewrite Heng in H. apply H. repeat constructor. }
  pose proof (exec_inv sh body0 (S fuel) m1 t Hwf HI1) as Hinv. cbn [exec] in Hinv.
  change (continuous (t :: ts)) with (Engage None false :: Execute t :: continuous ts).
  rewrite !run_cons_snd. cbn [step exec]. rewrite Heng. cbn [fst snd].
  revert Hinv. rewrite Hex. cbn [fst snd app]. intros Hinv Hok.
  rewrite !ok_cons in Hok. destruct Hok as (_ & Hbk & Hcall & Hok).
  destruct Hinv as (HI2 & _ & _); [repeat constructor; assumption|].
  eexists _, _. split; [unfold bk_ev; rewrite Z.add_0_r; reflexivity|].
  apply (chain_continuous fuel ts _ _); [|exact Hm | exact Hok].
  (* R holds after the first iteration *)
  exact (R_called _ (sh_first sh) _ HI2 eq_refl eq_refl (bk_m_sdat sh _ _ _) eq_refl).
Qed.

End P.
