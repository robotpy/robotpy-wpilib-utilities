(* Per-phase characterisation lemmas of SM.Model: later proofs use these and
   never unfold execute() as a whole. *)
From Coq Require Import ZArith List Bool Lia.
From RecordUpdate Require Import RecordSet.
Import ListNotations RecordSetNotations.
From RV Require Import SM.Model.
Open Scope Z_scope.

Ltac break_match :=
  match goal with
  | |- context [match ?x with _ => _ end] => destruct x eqn:?
  end.

(* The usage contract K as a property of the trace: no exception ([EvErr]), no in-state action issued while the
   machine is not executing and no explicit transition into the default state ([EvOff]), no clock reading that goes
   backwards ([EvBack]).  The theorems that need the contract take [ok] of the trace as their hypothesis. *)
Definition okev (e : event) : Prop :=
  match e with EvErr | EvOff | EvBack => False | _ => True end.
Definition ok (t : list event) : Prop := Forall okev t.

Lemma ok_app a b : ok (a ++ b) <-> ok a /\ ok b.
Proof. unfold ok. apply Forall_app. Qed.
Lemma ok_cons e t : ok (e :: t) <-> okev e /\ ok t.
Proof. unfold ok. split; [intros H; inversion H; auto | intros [? ?]; constructor; auto]. Qed.
Lemma ok_nil : ok []. Proof. constructor. Qed.
Lemma not_ok_err t : ~ ok (EvErr :: t).
Proof. intros H. apply ok_cons in H. destruct H as [[] _]. Qed.
Lemma not_ok_off t : ~ ok (EvOff :: t).
Proof. intros H. apply ok_cons in H. destruct H as [[] _]. Qed.
Lemma not_ok_back t : ~ ok (EvBack :: t).
Proof. intros H. apply ok_cons in H. destruct H as [[] _]. Qed.

(* events that are neither a state-function call nor a next_state_now(): all that
   the phases around the call emit *)
Definition silent_ev (e : event) : Prop :=
  match e with EvCall _ _ _ _ _ | EvNow => False | _ => True end.
Definition silent (t : list event) : Prop := Forall silent_ev t.
Lemma silent_app a b : silent a -> silent b -> silent (a ++ b).
Proof. intros Ha Hb. apply Forall_app. auto. Qed.

(* what holds of every event but a call and a next_state_now() holds of a silent trace *)
Lemma Forall_of_silent (P : event -> Prop) :
  (forall s, P (EvEnter s)) -> P EvDone -> P EvErr -> P EvOff -> P EvBack ->
  (forall d, P (EvFallback d)) -> (forall s a e, P (EvBk s a e)) ->
  forall t, silent t -> Forall P t.
Proof.
  intros H1 H2 H3 H4 H5 H6 H7 t. apply Forall_impl. intros [] H; auto; destruct H.
Qed.

Lemma is_some_eq_true a s : is_some_eq a s = true <-> a = Some s.
Proof.
  unfold is_some_eq. destruct a; split; try discriminate.
  - intros H. apply Nat.eqb_eq in H. congruence.
  - intros [= ->]. apply Nat.eqb_refl.
Qed.

Section Facts.
Variable sh : shape.

Lemma is_default_iff s : is_default sh s = true <-> sh_default sh = Some s.
Proof. apply is_some_eq_true. Qed.

Lemma next_state_should m s : should (next_state m s) = should m. Proof. reflexivity. Qed.
Lemma next_state_engaged m s : engaged (next_state m s) = engaged m. Proof. reflexivity. Qed.
Lemma next_state_cur m s : cur (next_state m s) = Some s. Proof. reflexivity. Qed.
Lemma next_state_nt m s : nt_cur (next_state m s) = Some s. Proof. reflexivity. Qed.
Lemma next_state_start m s : start (next_state m s) = start m. Proof. reflexivity. Qed.
Lemma next_state_clk m s : clk (next_state m s) = clk m. Proof. reflexivity. Qed.
Lemma next_state_ran m s : ran (sdat (next_state m s) s) = false.
Proof. unfold next_state, upd; cbn. rewrite Nat.eqb_refl. reflexivity. Qed.
Lemma next_state_sdat_other m s x : x <> s -> sdat (next_state m s) x = sdat m x.
Proof. intros H. unfold next_state, upd; cbn. destruct (Nat.eqb_spec x s); congruence. Qed.

Lemma done_engaged m : engaged (done sh m) = false.
Proof. unfold done. destruct (sh_auto sh); reflexivity. Qed.
Lemma done_cur m : cur (done sh m) = None.
Proof. unfold done. destruct (sh_auto sh); reflexivity. Qed.
Lemma done_nt m : nt_cur (done sh m) = None.
Proof. unfold done. destruct (sh_auto sh); reflexivity. Qed.
Lemma done_start m : start (done sh m) = start m.
Proof. unfold done. destruct (sh_auto sh); reflexivity. Qed.
Lemma done_clk m : clk (done sh m) = clk m.
Proof. unfold done. destruct (sh_auto sh); reflexivity. Qed.
Lemma done_sdat m : sdat (done sh m) = sdat m.
Proof. unfold done. destruct (sh_auto sh); reflexivity. Qed.
Lemma done_dur m : dur (done sh m) = dur m.
Proof. unfold done. destruct (sh_auto sh); reflexivity. Qed.
Lemma done_should m : should (done sh m) = if sh_auto sh then false else should m.
Proof. unfold done. destruct (sh_auto sh); reflexivity. Qed.
Lemma done_should_plain m : sh_auto sh = false -> should (done sh m) = should m.
Proof. intros H. rewrite done_should, H. reflexivity. Qed.
Lemma done_should_le m : should m = false -> should (done sh m) = false.
Proof. intros H. rewrite done_should, H. destruct (sh_auto sh); reflexivity. Qed.

(* engage(), with the request it sets out of the way of the test and of the target *)
Lemma engage_eq m i f :
  engage sh m i f =
  let m' := m <| should := true |> in
  if f || is_none (cur m) || at_default sh m then
    let s := match i with Some s => s | None => sh_first sh end in
    if is_state sh s then (next_state m' s, (if is_default sh s then [EvOff] else []) ++ [EvEnter s])
    else (m', [EvErr])
  else (m', []).
Proof. reflexivity. Qed.

Lemma duration_of_dur m m' s : dur m' = dur m -> duration_of sh m' s = duration_of sh m s.
Proof. intros E. unfold duration_of. rewrite E. reflexivity. Qed.

Lemma latch_should m now : should (latch m now) = should m.
Proof. unfold latch. destruct (negb (engaged m) && should m); reflexivity. Qed.
Lemma latch_cur m now : cur (latch m now) = cur m.
Proof. unfold latch. destruct (negb (engaged m) && should m); reflexivity. Qed.
Lemma latch_nt m now : nt_cur (latch m now) = nt_cur m.
Proof. unfold latch. destruct (negb (engaged m) && should m); reflexivity. Qed.
Lemma latch_sdat m now : sdat (latch m now) = sdat m.
Proof. unfold latch. destruct (negb (engaged m) && should m); reflexivity. Qed.
Lemma latch_clk m now : clk (latch m now) = clk m.
Proof. unfold latch. destruct (negb (engaged m) && should m); reflexivity. Qed.
Lemma latch_engaged m now : engaged (latch m now) = engaged m || should m.
Proof. unfold latch. destruct (engaged m) eqn:E, (should m) eqn:E2; cbn; rewrite ?E; reflexivity. Qed.
Lemma latch_start m now :
  start (latch m now) = if negb (engaged m) && should m then now else start m.
Proof. unfold latch. destruct (negb (engaged m) && should m); reflexivity. Qed.
Lemma latch_engaged_id m now : engaged m = true -> latch m now = m.
Proof. intros H. unfold latch. rewrite H. reflexivity. Qed.

Lemma expire_should_le m now : should m = false -> should (s_m (expire sh m now)) = false.
Proof. intros H. unfold expire. repeat break_match; cbn; auto using done_should_le. Qed.
Lemma expire_should_plain m now : sh_auto sh = false -> should (s_m (expire sh m now)) = should m.
Proof.
  intros Ha. unfold expire. repeat break_match; cbn; auto; rewrite ?done_should_plain in *; auto.
Qed.
Lemma expire_clk m now : clk (s_m (expire sh m now)) = clk m.
Proof. unfold expire. repeat break_match; cbn; auto using done_clk. Qed.

Lemma deactivate_m x : s_m (deactivate sh x) = s_m x.
Proof. unfold deactivate. repeat break_match; reflexivity. Qed.
Lemma deactivate_ev x : s_ev (deactivate sh x) = s_ev x.
Proof. unfold deactivate. repeat break_match; reflexivity. Qed.
Lemma deactivate_tm x : s_tm (deactivate sh x) = s_tm x.
Proof. unfold deactivate. repeat break_match; reflexivity. Qed.
Lemma deactivate_nss x : s_nss (deactivate sh x) = s_nss x.
Proof. unfold deactivate. repeat break_match; reflexivity. Qed.
Lemma deactivate_done x : s_done (deactivate sh x) = s_done x.
Proof. unfold deactivate. repeat break_match; reflexivity. Qed.
Lemma deactivate_st x :
  s_st (deactivate sh x) =
  match s_st x with
  | Some s => if should (s_m x) || is_must sh s then Some s else None
  | None => None
  end.
Proof. unfold deactivate. repeat break_match; cbn; congruence. Qed.

Lemma stop_st x : s_st (stop_if_engaged sh x) = s_st x.
Proof. unfold stop_if_engaged. repeat break_match; cbn; congruence. Qed.
Lemma stop_tm x : s_tm (stop_if_engaged sh x) = s_tm x.
Proof. unfold stop_if_engaged. repeat break_match; reflexivity. Qed.
Lemma stop_nss x : s_nss (stop_if_engaged sh x) = s_nss x.
Proof. unfold stop_if_engaged. repeat break_match; reflexivity. Qed.
Lemma stop_should_le x : should (s_m x) = false -> should (s_m (stop_if_engaged sh x)) = false.
Proof. unfold stop_if_engaged. repeat break_match; cbn; auto using done_should_le. Qed.
Lemma stop_should_plain x : sh_auto sh = false ->
  should (s_m (stop_if_engaged sh x)) = should (s_m x).
Proof. intros. unfold stop_if_engaged. repeat break_match; cbn; auto using done_should_plain. Qed.
Lemma stop_clk x : clk (s_m (stop_if_engaged sh x)) = clk (s_m x).
Proof. unfold stop_if_engaged. repeat break_match; cbn; auto using done_clk. Qed.

Lemma fallback_should x : should (s_m (fallback sh x)) = should (s_m x).
Proof. unfold fallback. repeat break_match; reflexivity. Qed.
Lemma fallback_engaged x : engaged (s_m (fallback sh x)) = engaged (s_m x).
Proof. unfold fallback. repeat break_match; reflexivity. Qed.
Lemma fallback_start x : start (s_m (fallback sh x)) = start (s_m x).
Proof. unfold fallback. repeat break_match; reflexivity. Qed.
Lemma fallback_nt x : nt_cur (s_m (fallback sh x)) = nt_cur (s_m x).
Proof. unfold fallback. repeat break_match; reflexivity. Qed.
Lemma fallback_clk x : clk (s_m (fallback sh x)) = clk (s_m x).
Proof. unfold fallback. repeat break_match; reflexivity. Qed.
Lemma fallback_tm x : s_tm (fallback sh x) = s_tm x.
Proof. unfold fallback. repeat break_match; reflexivity. Qed.
Lemma fallback_nss x : s_nss (fallback sh x) = s_nss x.
Proof. unfold fallback. repeat break_match; reflexivity. Qed.
Lemma fallback_done x : s_done (fallback sh x) = s_done x.
Proof. unfold fallback. repeat break_match; reflexivity. Qed.

Lemma select_should_le x : should (s_m x) = false -> should (s_m (select sh x)) = false.
Proof.
  intros H. unfold select. rewrite fallback_should. apply stop_should_le. rewrite deactivate_m. exact H.
Qed.
Lemma select_should_plain x : sh_auto sh = false -> should (s_m (select sh x)) = should (s_m x).
Proof.
  intros Ha. unfold select. rewrite fallback_should, stop_should_plain, deactivate_m by exact Ha.
  reflexivity.
Qed.
Lemma select_tm x : s_tm (select sh x) = s_tm x.
Proof. unfold select. rewrite fallback_tm, stop_tm, deactivate_tm. reflexivity. Qed.
Lemma select_nss x : s_nss (select sh x) = s_nss x.
Proof. unfold select. rewrite fallback_nss, stop_nss, deactivate_nss. reflexivity. Qed.
Lemma select_clk x : clk (s_m (select sh x)) = clk (s_m x).
Proof. unfold select. rewrite fallback_clk, stop_clk, deactivate_m. reflexivity. Qed.

(* the selection phases only append to the events of expire (the stop, the fall-back) *)
Lemma select_ev x : exists t, s_ev (select sh x) = s_ev x ++ t /\ silent t.
Proof.
  unfold select, fallback, stop_if_engaged.
  repeat break_match; cbn [s_ev set]; rewrite ?deactivate_ev, <- ?app_assoc;
    eexists; (split; [try reflexivity; symmetry; apply app_nil_r | repeat constructor]).
Qed.

Lemma select_ok x : ok (s_ev (select sh x)) -> ok (s_ev x).
Proof. destruct (select_ev x) as (t & -> & _). intros H. apply ok_app in H. tauto. Qed.

(* a state that is requested or must finish goes through the selection phases untouched *)
Definition kept (x : sel) : Prop :=
  exists s, s_st x = Some s /\ (should (s_m x) || is_must sh s)%bool = true.

Lemma deactivate_kept x : kept x -> deactivate sh x = x.
Proof. intros (s & Hs & Hk). unfold deactivate. rewrite Hs, Hk. reflexivity. Qed.
Lemma select_kept x : kept x -> select sh x = x.
Proof.
  intros Hk. unfold select. rewrite (deactivate_kept x Hk). destruct Hk as (s & Hs & _).
  unfold stop_if_engaged. rewrite Hs. unfold fallback. rewrite Hs. reflexivity.
Qed.
Lemma kept_or_none x : kept x \/ s_st (deactivate sh x) = None.
Proof.
  rewrite deactivate_st. unfold kept. destruct (s_st x) as [s|]; [|auto].
  destruct (should (s_m x) || is_must sh s)%bool eqn:E; eauto.
Qed.

(* ---- expire: its five outcomes -------------------------------------- *)
Definition keep_sel (m : sm) (now : Z) (st : option name) : sel :=
  {| s_m := m; s_st := st; s_nss := now - start m; s_tm := now - start m; s_ev := []; s_done := false |}.

Definition expired (m : sm) (now : Z) (s : name) : Prop :=
  cur m = Some s /\ ran (sdat m s) = true /\ st_exp (sdat m s) < now - start m.

Inductive expire_out (m : sm) (now : Z) : sel -> Prop :=
| EKeep : (forall s, ~ expired m now s) -> expire_out m now (keep_sel m now (cur m))
| ENext s dc n : expired m now s -> lookup sh s = Some dc -> d_timed dc = true ->
    d_next dc = Some n -> is_state sh n = true ->
    expire_out m now {| s_m := next_state m n; s_st := Some n; s_nss := st_exp (sdat m s);
                        s_tm := now - start m; s_ev := [EvEnter n]; s_done := false |}
| ECycle s dc : expired m now s -> lookup sh s = Some dc -> d_timed dc = true -> d_next dc = None ->
    should (done sh m) = true ->
    expire_out m now
      {| s_m := next_state (done sh m <| start := start (done sh m) + st_exp (sdat m s) |> <| engaged := true |>)
                           (sh_first sh);
         s_st := Some (sh_first sh); s_nss := 0; s_tm := now - start m - st_exp (sdat m s);
         s_ev := [EvDone; EvEnter (sh_first sh)]; s_done := true |}
| EFinish s dc : expired m now s -> lookup sh s = Some dc -> d_timed dc = true -> d_next dc = None ->
    should (done sh m) = false ->
    expire_out m now {| s_m := done sh m; s_st := None; s_nss := st_exp (sdat m s); s_tm := now - start m;
                        s_ev := [EvDone]; s_done := true |}
| EErr s nss : expired m now s ->
    expire_out m now {| s_m := m; s_st := None; s_nss := nss; s_tm := now - start m;
                        s_ev := [EvErr]; s_done := false |}.

Lemma expire_spec m now : expire_out m now (expire sh m now).
Proof.
  assert (K : forall st, st = cur m -> (forall s, ~ expired m now s) -> expire_out m now (keep_sel m now st))
    by (intros st ->; apply EKeep).
  unfold expire. destruct (cur m) as [s|] eqn:Ec;
    [|apply K; [congruence | intros s (H & _); congruence]].
  destruct (ran (sdat m s)) eqn:Er; cbn [andb];
    [|apply K; [congruence | intros s' (H & Hr & _); congruence]].
  destruct (Z.ltb_spec (st_exp (sdat m s)) (now - start m)) as [Hx|Hx];
    [|apply K; [congruence | intros s' (H & _ & Hx'); assert (s' = s) by congruence; subst; lia]].
  assert (He : expired m now s) by (repeat split; assumption).
  destruct (lookup sh s) as [dc|] eqn:El; [|apply (EErr _ _ s), He].
  destruct (d_timed dc) eqn:Et; [|apply (EErr _ _ s), He].
  destruct (d_next dc) as [n|] eqn:En.
  - destruct (is_state sh n) eqn:Es; [eapply ENext; eassumption | apply (EErr _ _ s), He].
  - destruct (should (done sh m)) eqn:Ed; [eapply ECycle | eapply EFinish]; eassumption.
Qed.

Lemma expired_ok m now s : expired m now s -> ok (s_ev (expire sh m now)) ->
  exists dc, lookup sh s = Some dc /\ d_timed dc = true /\
    (d_next dc = None \/ exists n, d_next dc = Some n /\ is_state sh n = true).
Proof.
  intros He.
  assert (same : forall s0, expired m now s0 -> s0 = s)
    by (intros s0 (Hc0 & _); destruct He as (Hc & _); congruence).
  destruct (expire_spec m now) as [Hk|s0 dc n He0 Hl Ht Hn Hs|s0 dc He0 Hl Ht Hn _|s0 dc He0 Hl Ht Hn _|s0 nss _];
    intros Hok.
  - (* kept *) destruct (Hk s He).
  - (* next *) rewrite (same s0 He0) in Hl. exists dc. split; [exact Hl|]. split; [exact Ht|]. right. exists n. auto.
  - (* cycle *) rewrite (same s0 He0) in Hl. exists dc. auto.
  - (* finish *) rewrite (same s0 He0) in Hl. exists dc. auto.
  - (* error *) destruct (not_ok_err _ Hok).
Qed.

Lemma expire_silent m now : silent (s_ev (expire sh m now)).
Proof. destruct (expire_spec m now); repeat constructor. Qed.

(* conversely, which outcome it is *)
Lemma expire_keep m now s : cur m = Some s ->
  (ran (sdat m s) = false \/ now - start m <= st_exp (sdat m s)) ->
  expire sh m now = keep_sel m now (Some s).
Proof.
  intros Hc H. unfold expire. rewrite Hc.
  destruct (ran (sdat m s)) eqn:Er; cbn -[Z.sub]; [|reflexivity].
  destruct H as [H|H]; [discriminate|].
  destruct (Z.ltb_spec (st_exp (sdat m s)) (now - start m)); [lia | reflexivity].
Qed.

Lemma expire_next m now s dc n : cur m = Some s -> ran (sdat m s) = true ->
  st_exp (sdat m s) < now - start m -> lookup sh s = Some dc -> d_timed dc = true ->
  d_next dc = Some n -> is_state sh n = true ->
  expire sh m now =
  {| s_m := next_state m n; s_st := Some n; s_nss := st_exp (sdat m s); s_tm := now - start m;
     s_ev := [EvEnter n]; s_done := false |}.
Proof.
  intros Hc Hr Hx Hl Ht Hn Hs. unfold expire. rewrite Hc, Hr.
  apply Z.ltb_lt in Hx. rewrite Hx. cbn -[Z.sub]. rewrite Hl, Ht, Hn, Hs. reflexivity.
Qed.

Lemma expire_last m now s dc : cur m = Some s -> ran (sdat m s) = true ->
  st_exp (sdat m s) < now - start m -> lookup sh s = Some dc -> d_timed dc = true ->
  d_next dc = None ->
  expire sh m now =
  if should (done sh m) then
    {| s_m := next_state (done sh m <| start := start (done sh m) + st_exp (sdat m s) |> <| engaged := true |>) (sh_first sh);
       s_st := Some (sh_first sh); s_nss := 0; s_tm := now - start m - st_exp (sdat m s);
       s_ev := [EvDone; EvEnter (sh_first sh)]; s_done := true |}
  else
    {| s_m := done sh m; s_st := None; s_nss := st_exp (sdat m s); s_tm := now - start m;
       s_ev := [EvDone]; s_done := true |}.
Proof.
  intros Hc Hr Hx Hl Ht Hn. unfold expire. rewrite Hc, Hr.
  apply Z.ltb_lt in Hx. rewrite Hx. cbn -[Z.sub]. rewrite Hl, Ht, Hn. reflexivity.
Qed.

Definition bk_m (m : sm) (s : name) (nss : Z) : sm :=
  m <| sdat := upd (sdat m) s {| ran := true; st_start := nss; st_exp := nss + duration_of sh m s |} |>.
Definition bk_ev (m : sm) (s : name) (nss : Z) : event :=
  EvBk s (start m + nss) (start m + (nss + duration_of sh m s)).

Lemma enter_bk_ran m s nss : ran (sdat m s) = true -> enter_bk sh m s nss = (m, false, []).
Proof. intros H. unfold enter_bk. rewrite H. reflexivity. Qed.
Lemma enter_bk_fresh m s nss : ran (sdat m s) = false ->
  enter_bk sh m s nss = (bk_m m s nss, true, [bk_ev m s nss]).
Proof. intros H. unfold enter_bk. rewrite H. reflexivity. Qed.
Lemma bk_m_sdat m s nss :
  sdat (bk_m m s nss) s = {| ran := true; st_start := nss; st_exp := nss + duration_of sh m s |}.
Proof. unfold bk_m. cbn. unfold upd. rewrite Nat.eqb_refl. reflexivity. Qed.

(* read the other way, from [enter_bk sh m s nss = (m1, init, bk)] as XCall below has it:
   the two flags it leaves alone, the state's data and [init], the events *)
Lemma enter_bk_should m s nss m1 init bk : enter_bk sh m s nss = (m1, init, bk) -> should m1 = should m.
Proof. unfold enter_bk. destruct (ran (sdat m s)); intros [= <- _ _]; reflexivity. Qed.
Lemma enter_bk_engaged m s nss m1 init bk : enter_bk sh m s nss = (m1, init, bk) -> engaged m1 = engaged m.
Proof. unfold enter_bk. destruct (ran (sdat m s)); intros [= <- _ _]; reflexivity. Qed.

Lemma enter_bk_spec m s nss m1 init bk : enter_bk sh m s nss = (m1, init, bk) ->
  init = negb (ran (sdat m s)) /\ ran (sdat m1 s) = true
  /\ (forall x, x <> s -> sdat m1 x = sdat m x).
Proof.
  destruct (ran (sdat m s)) eqn:E.
  - rewrite enter_bk_ran by exact E. intros [= <- <- _]. auto.
  - rewrite enter_bk_fresh by exact E. intros [= <- <- _]. rewrite bk_m_sdat. repeat split.
    intros x Hx. cbn. unfold upd. destruct (Nat.eqb_spec x s); congruence.
Qed.

Lemma enter_bk_ev m s nss m1 init bk : enter_bk sh m s nss = (m1, init, bk) ->
  bk = [] \/ exists a e, bk = [EvBk s a e].
Proof. unfold enter_bk. destruct (ran (sdat m s)); intros [= _ _ <-]; eauto. Qed.
Lemma enter_bk_silent m s nss m1 init bk : enter_bk sh m s nss = (m1, init, bk) -> silent bk.
Proof. intros H. destruct (enter_bk_ev _ _ _ _ _ _ H) as [->|(a & e & ->)]; repeat constructor. Qed.

(* the contract marks in front of a transition are not a done() *)
Lemma in_done_after_off m n t : In EvDone (off_if_idle m ++ off_if_default sh n ++ t) <-> In EvDone t.
Proof.
  unfold off_if_idle, off_if_default. destruct (engaged m), (is_default sh n); cbn; intuition discriminate.
Qed.

(* ---- one iteration: its four outcomes ------------------------------ *)
Section Step.
Variable body : nat -> name -> Z -> Z -> bool -> list action.
Variable nested : sm -> Z -> sm * list event.

Lemma off_idle_silent m : silent (off_if_idle m).
Proof. unfold off_if_idle. destruct (engaged m); repeat constructor. Qed.
Lemma off_default_silent s : silent (off_if_default sh s).
Proof. unfold off_if_default. destruct (is_default sh s); repeat constructor. Qed.
Lemma off_idle_ok m : ok (off_if_idle m) -> engaged m = true.
Proof. unfold off_if_idle. destruct (engaged m); auto. intros H. exfalso. eapply not_ok_off, H. Qed.
Lemma off_default_ok s : ok (off_if_default sh s) -> is_default sh s = false.
Proof. unfold off_if_default. destruct (is_default sh s); auto. intros H. exfalso. eapply not_ok_off, H. Qed.

(* after the nested iteration of next_state_now() the request is put back, but only
   on a machine that is still executing *)
Definition restore (m1 : sm) (sv : bool) : sm := if engaged m1 then m1 <| should := sv |> else m1.
Lemma restore_engaged m1 sv : engaged (restore m1 sv) = engaged m1.
Proof. unfold restore. destruct (engaged m1) eqn:E; exact E. Qed.

(* the actions of a state function, as a derivation: the induction principle of
   this relation is how every property of run_actions is proved (the lemmas
   [run_actions_*] of the later files are stated over it) *)
Inductive actions_out : list action -> sm -> sm -> list event -> Prop :=
| ANil m : actions_out [] m m []
| ABad a r m : match a with ANext n | ANextNow n _ => is_state sh n = false | ADone => False end ->
    actions_out (a :: r) m m [EvErr]
| AGo n r m m' e : is_state sh n = true -> actions_out r (next_state m n) m' e ->
    actions_out (ANext n :: r) m m' (off_if_idle m ++ off_if_default sh n ++ EvEnter n :: e)
| AFin r m m' e : actions_out r (done sh m) m' e ->
    actions_out (ADone :: r) m m' (off_if_idle m ++ EvDone :: e)
| ANow n now' r m m' e : is_state sh n = true ->
    actions_out r (restore (fst (nested (next_state m n) now')) (should m)) m' e ->
    actions_out (ANextNow n now' :: r) m m'
      (off_if_idle m ++ off_if_default sh n ++ EvNow :: EvEnter n :: snd (nested (next_state m n) now') ++ e).

Lemma run_actions_spec acts : forall m,
  actions_out acts m (fst (run_actions sh nested acts m)) (snd (run_actions sh nested acts m)).
Proof.
  induction acts as [|a r IH]; intros m; cbn [run_actions]; [apply ANil|].
  destruct a as [n|n now'|].
  - destruct (is_state sh n) eqn:Es; [|apply ABad, Es].
    specialize (IH (next_state m n)). destruct (run_actions sh nested r (next_state m n)).
    apply AGo; assumption.
  - destruct (is_state sh n) eqn:Es; [|apply ABad, Es].
    generalize (ANow n now' r m _ _ Es (IH (restore (fst (nested (next_state m n) now')) (should m)))).
    unfold restore. destruct (nested (next_state m n) now') as [m1 e1]. cbn [fst snd].
    destruct (run_actions sh nested r _). exact (fun H => H).
  - specialize (IH (done sh m)). destruct (run_actions sh nested r (done sh m)). apply AFin, IH.
Qed.

Definition back (m : sm) (now : Z) : list event := if now <? clk m then [EvBack] else [].
Definition skips (m : sm) : bool := negb (engaged m) && negb (should m) && is_none (sh_default sh).
Definition selected (m : sm) (now : Z) : sel := select sh (expire sh (latch (m <| clk := now |>) now) now).

(* [x] is what the selection phases return *)
Inductive exec_step_out (m : sm) (now : Z) (x : sel) : sm -> list event -> Prop :=
| XSkip : skips m = true -> exec_step_out m now x (m <| clk := now |>) (back m now)
| XIdle : skips m = false -> s_st x = None -> s_done x = true ->
    exec_step_out m now x (s_m x <| should := false |>) (back m now ++ s_ev x)
| XStop : skips m = false -> s_st x = None -> s_done x = false ->
    exec_step_out m now x (done sh (s_m x) <| should := false |>) (back m now ++ s_ev x ++ [EvDone])
| XCall s m1 init bk m2 e : skips m = false -> s_st x = Some s ->
    enter_bk sh (s_m x) s (s_nss x) = (m1, init, bk) ->
    let tm := s_tm x in
    let stm := tm - st_start (sdat m1 s) in
    actions_out (body (ncall m1) s tm stm init) (m1 <| ncall := S (ncall m1) |>) m2 e ->
    exec_step_out m now x (m2 <| should := false |>)
      (back m now ++ s_ev x ++ bk ++ EvCall s tm stm init (engaged m1) :: e).

(* [selected] is brought into execute() by rewriting.  Wherever [selected m now] would
   have to be compared with its unfolding or reduced to a constructor, the kernel
   unfolds the selection phases whole, a term many times the size of the goal: a proof
   about an iteration therefore first states what it needs of [selected m now] and then
   generalizes it to a variable [x] before it takes exec_step_spec apart. *)
Lemma exec_step_eq m now : exec_step sh body nested m now =
  if skips m then (m <| clk := now |>, back m now) else
  let x := selected m now in
  let '(m', ev) :=
    match s_st x with
    | Some s =>
        let '(m1, init, bk) := enter_bk sh (s_m x) s (s_nss x) in
        let stm := s_tm x - st_start (sdat m1 s) in
        let '(m2, e) := run_actions sh nested (body (ncall m1) s (s_tm x) stm init) (m1 <| ncall := S (ncall m1) |>) in
        (m2, bk ++ EvCall s (s_tm x) stm init (engaged m1) :: e)
    | None => if s_done x then (s_m x, []) else (done sh (s_m x), [EvDone])
    end in
  (m' <| should := false |>, back m now ++ s_ev x ++ ev).
Proof.
  unfold exec_step.
  assert (E : selected m now = select sh (expire sh (latch (m <| clk := now |>) now) now)) by reflexivity.
  rewrite <- E. reflexivity.
Qed.

Lemma exec_step_spec m now :
  exec_step_out m now (selected m now) (fst (exec_step sh body nested m now)) (snd (exec_step sh body nested m now)).
Proof.
  rewrite exec_step_eq.
  destruct (skips m) eqn:Esk; [apply XSkip, Esk|]. cbv zeta.
  destruct (s_st (selected m now)) as [s|] eqn:Est.
  - destruct (enter_bk sh (s_m (selected m now)) s (s_nss (selected m now))) as [[m1 init] bk] eqn:Ebk.
    pose proof (run_actions_spec (body (ncall m1) s (s_tm (selected m now))
                  (s_tm (selected m now) - st_start (sdat m1 s)) init) (m1 <| ncall := S (ncall m1) |>)) as Hr.
    destruct (run_actions sh nested _ _) as [m2 e]. eapply XCall; eassumption.
  - destruct (s_done (selected m now)) eqn:Ed; cbn [fst snd];
      [rewrite app_nil_r; apply XIdle | apply XStop]; assumption.
Qed.

Lemma back_silent m now : silent (back m now).
Proof. unfold back. destruct (now <? clk m); repeat constructor. Qed.
Lemma selected_silent m now : silent (s_ev (selected m now)).
Proof.
  unfold selected. destruct (select_ev (expire sh (latch (m <| clk := now |>) now) now)) as (t & -> & Ht).
  apply silent_app; [apply expire_silent | exact Ht].
Qed.

Lemma exec_step_ok_selected m now : skips m = false -> ok (snd (exec_step sh body nested m now)) ->
  ok (s_ev (selected m now)).
Proof.
  intros Hsk. generalize (exec_step_spec m now). generalize (selected m now). intros x Hspec.
  destruct Hspec as [Hsk'| | |]; [congruence|..]; rewrite !ok_app; tauto.
Qed.

Lemma back_ok m now : ok (back m now) -> clk m <= now.
Proof.
  unfold back. destruct (Z.ltb_spec now (clk m)) as [Hlt|Hge]; [|lia]. intros Hb. exfalso. eapply not_ok_back, Hb.
Qed.
End Step.

Lemma run_cons_fst body fuel m o r :
  fst (run sh body fuel m (o :: r)) = fst (run sh body fuel (fst (step sh body fuel m o)) r).
Proof. cbn [run]. destruct (step sh body fuel m o) as [m1 e]. cbn [fst]. destruct (run sh body fuel m1 r). reflexivity. Qed.
Lemma run_cons_snd body fuel m o r :
  concat (snd (run sh body fuel m (o :: r))) =
  snd (step sh body fuel m o) ++ concat (snd (run sh body fuel (fst (step sh body fuel m o)) r)).
Proof. cbn [run]. destruct (step sh body fuel m o) as [m1 e]. cbn [fst]. destruct (run sh body fuel m1 r). reflexivity. Qed.

End Facts.

Arguments selected : simpl never.
