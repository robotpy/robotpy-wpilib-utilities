(* execute() WITH its recursion through next_state_now(): the statement-by-statement translation of the source
   (SM/SrcExec.v), closed over itself by fuel exactly like the model's [exec], computes the model's [exec] on every
   machine, clock reading and user code -- whenever the model's trace has no [EvErr] (no exception: unknown state name,
   expiry of an untimed state, recursion limit), which is what the hypothesis `ok` of the property theorems says. *)
From Coq Require Import ZArith List Bool Lia Arith.
From RecordUpdate Require Import RecordSet.
Import ListNotations RecordSetNotations.
From RV Require Import SM.Model SM.SrcExec SM.SrcExecProofs.
Open Scope Z_scope.
Open Scope bool_scope.

Section Rec.
Variable sh : shape.
Variable body : nat -> name -> Z -> Z -> bool -> list action.
Hypothesis Hfirst : is_state sh (sh_first sh) = true.

(* what a caller of execute() sees: the machine afterwards, the observable events, and the exception if one escapes *)
Definition pack (f : frame) : sm * list event := (f_m f, f_ev f ++ (if f_err f then [EvErr] else [])).

Fixpoint src_exec (fuel : nat) : sm -> Z -> sm * list event :=
  match fuel with
  | O => fun m _ => (m, [EvErr])
  | S n => fun m now => pack (ref_execute sh body (src_exec n) m now)
  end.

(* n1 computes what n2 computes (machine, observable events) wherever n2 raises no exception *)
Definition sim (n1 n2 : sm -> Z -> sm * list event) : Prop :=
  forall m now, ~ In EvErr (snd (n2 m now)) ->
    fst (n1 m now) = fst (n2 m now) /\ filter observable (snd (n1 m now)) = filter observable (snd (n2 m now)).

(* the same of two results; [sim n1 n2] is [forall m now, agree (n1 m now) (n2 m now)] *)
Definition agree (p q : sm * list event) : Prop :=
  ~ In EvErr (snd q) -> fst p = fst q /\ filter observable (snd p) = filter observable (snd q).

Lemma agree_refl : forall p, agree p p.
Proof. intros p _; split; reflexivity. Qed.

Lemma agree_trans : forall p q r, agree p q -> agree q r -> agree p r.
Proof.
  intros p q r Hpq Hqr Hr. destruct (Hqr Hr) as [Hm He].
  destruct Hpq as [Hm' He'].
  - (* an exception of q is observable, so it would be one of r *)
    intros H. apply Hr, (filter_In observable). rewrite <- He. apply filter_In; split; [exact H|reflexivity].
  - split; [rewrite Hm'; exact Hm | rewrite He'; exact He].
Qed.

(* one run after another, the second from the machine the first one left *)
Lemma agree_seq : forall [ma ea mb eb mc ec md ed],
  agree (ma, ea) (mb, eb) -> (ma = mb -> agree (mc, ec) (md, ed)) -> agree (mc, ea ++ ec) (md, eb ++ ed).
Proof.
  intros ma ea mb eb mc ec md ed H1 H2 H; unfold agree in *; cbn [fst snd] in *.
  destruct H1 as [Hm He]; [intros H'; apply H, in_or_app; left; exact H'|].
  destruct (H2 Hm) as [Hm' He']; [intros H'; apply H, in_or_app; right; exact H'|].
  split; [exact Hm'|]. rewrite !filter_app, He, He'; reflexivity.
Qed.

Lemma agree_app : forall a m1 e1 m2 e2, agree (m1, e1) (m2, e2) -> agree (m1, a ++ e1) (m2, a ++ e2).
Proof. intros a m1 e1 m2 e2 H; exact (agree_seq (agree_refl (m1, a)) (fun _ => H)). Qed.

Lemma agree_fst : forall (g : sm -> sm) m1 e1 m2 e2, agree (m1, e1) (m2, e2) -> agree (g m1, e1) (g m2, e2).
Proof. intros g m1 e1 m2 e2 H Hn; destruct (H Hn) as [Hm He]; split; [exact (f_equal g Hm) | exact He]. Qed.

Lemma run_actions_sim : forall n1 n2, sim n1 n2 -> forall acts m,
  ~ In EvErr (snd (run_actions sh n2 acts m)) ->
  fst (run_actions sh n1 acts m) = fst (run_actions sh n2 acts m) /\
  filter observable (snd (run_actions sh n1 acts m)) = filter observable (snd (run_actions sh n2 acts m)).
Proof.
  intros n1 n2 Hs acts. change (forall m, agree (run_actions sh n1 acts m) (run_actions sh n2 acts m)).
  induction acts as [|a r IH]; intros m; [apply agree_refl|].
  destruct a as [s|s now'|]; cbn [run_actions].
  - destruct (is_state sh s); [|apply agree_refl]. specialize (IH (next_state m s)).
    destruct (run_actions sh n1 r _), (run_actions sh n2 r _). apply agree_app, agree_app, (agree_app [_]), IH.
  - destruct (is_state sh s); [|apply agree_refl]. pose proof (Hs (next_state m s) now' : agree _ _) as Hn.
    destruct (n1 _ now') as [m1 e1], (n2 _ now') as [m2 e2].
    destruct (run_actions sh n1 r _) as [m1' e1'] eqn:E1, (run_actions sh n2 r _) as [m2' e2'] eqn:E2.
    apply agree_app, agree_app, (agree_app [_; _]), (agree_seq Hn).
    intros Hm; rewrite <- E1, <- E2, Hm. apply IH.
  - specialize (IH (done sh m)).
    destruct (run_actions sh n1 r _), (run_actions sh n2 r _). apply agree_app, (agree_app [_]), IH.
Qed.

Lemma call_part_sim : forall n1 n2, sim n1 n2 -> forall x,
  ~ In EvErr (snd (call_part sh body n2 x)) ->
  fst (call_part sh body n1 x) = fst (call_part sh body n2 x) /\
  filter observable (snd (call_part sh body n1 x)) = filter observable (snd (call_part sh body n2 x)).
Proof.
  intros n1 n2 Hs x. change (agree (call_part sh body n1 x) (call_part sh body n2 x)). unfold call_part.
  destruct (s_st x) as [s|]; [|apply agree_refl].
  destruct (enter_bk sh (s_m x) s (s_nss x)) as [[m1 init] bk]; cbv zeta.
  generalize (run_actions_sim n1 n2 Hs (body (ncall m1) s (s_tm x) (s_tm x - st_start (sdat m1 s)) init) (m1 <| ncall := S (ncall m1) |>)).
  destruct (run_actions sh n1 _ _), (run_actions sh n2 _ _). intros Hr. apply agree_app, (agree_app [_]); exact Hr.
Qed.

Lemma exec_step_sim : forall n1 n2, sim n1 n2 -> sim (exec_step sh body n1) (exec_step sh body n2).
Proof.
  intros n1 n2 Hs m now. change (agree (exec_step sh body n1 m now) (exec_step sh body n2 m now)).
  rewrite !exec_step_unfold; cbv zeta.
  destruct (negb _ && negb _ && is_none _); [apply agree_refl|].
  generalize (call_part_sim n1 n2 Hs (select sh (expire sh (latch (m <| clk := now |>) now) now))).
  destruct (call_part sh body n1 _), (call_part sh body n2 _). intros Hc. apply agree_app, agree_app, agree_fst; exact Hc.
Qed.

Lemma filter_obs_idem : forall l, filter observable (filter observable l) = filter observable l.
Proof.
  induction l as [|e l IH]; [reflexivity|]. cbn [filter]. destruct (observable e) eqn:E; cbn [filter]; rewrite ?E, IH; reflexivity.
Qed.

(* [ref_execute_spec], as its caller sees it *)
Lemma pack_spec : forall nested m now,
  agree (pack (ref_execute sh body nested m now)) (exec_step sh body nested m now).
Proof.
  intros nested m now Hn. destruct (ref_execute_spec sh body nested m now Hfirst) as [Hok Herr].
  unfold pack. destruct (f_err _); [exfalso; exact (Hn (Herr eq_refl))|].
  destruct (Hok eq_refl) as [Hm He]. cbn [fst snd]. rewrite app_nil_r, He, filter_obs_idem. split; [exact Hm|reflexivity].
Qed.

Theorem src_exec_is_exec : forall fuel, sim (src_exec fuel) (exec sh body fuel).
Proof.
  induction fuel as [|n IH]; intros m now; [exact (agree_refl _)|].
  exact (agree_trans _ _ _ (pack_spec (src_exec n) m now) (exec_step_sim _ _ IH m now)).
Qed.

(* without exceptions, execute() as translated returns the model's machine and observable trace *)
Corollary src_exec_run : forall fuel m now, ~ In EvErr (snd (exec sh body fuel m now)) ->
  fst (src_exec fuel m now) = fst (exec sh body fuel m now) /\
  filter observable (snd (src_exec fuel m now)) = filter observable (snd (exec sh body fuel m now)).
Proof. intros fuel m now H; exact (src_exec_is_exec fuel m now H). Qed.

End Rec.
Print Assumptions src_exec_is_exec.
