(* C13: AutonomousStateMachine runs once per enable and never loops.
   Also C01's "the machine stops as soon as it is not inside a must_finish state". *)
From Coq Require Import ZArith List Bool Lia.
From RecordUpdate Require Import RecordSet.
Import ListNotations RecordSetNotations.
From RV Require Import SM.Model SM.Basics SM.Engage SM.Invariants SM.Stop SM.Timing.
Open Scope Z_scope.

Section P.
Variable sh : shape.
Variable body : nat -> name -> Z -> Z -> bool -> list action.
Hypothesis Hwf : wf_shape sh.

(* ------------------------------------------------------------------ *)
(* on_iteration = engage(); execute(); latch := is_executing            *)
Theorem auto_iteration_as_if_engaged fuel m now : auto_on m = true ->
  step sh body fuel m (AOnIteration now) =
  (let '(m1, e1) := step sh body fuel m (Engage None false) in
   let '(m2, e2) := step sh body fuel m1 (Execute now) in
   (m2 <| auto_on := engaged m2 |>, e1 ++ e2)).
Proof. intros H. cbn [step]. rewrite H. reflexivity. Qed.

Theorem auto_off_noop fuel m now : auto_on m = false ->
  step sh body fuel m (AOnIteration now) = (m, []).
Proof. intros H. cbn [step]. rewrite H. reflexivity. Qed.

Theorem auto_disable_stops fuel m : sh_auto sh = true ->
  let m' := fst (step sh body fuel m AOnDisable) in
  snd (step sh body fuel m AOnDisable) = [EvDone] /\
  engaged m' = false /\ auto_on m' = false /\ should m' = false /\ cur m' = None /\ nt_cur m' = None.
Proof.
  intros Ha. cbn [step fst snd]. unfold done. rewrite Ha. cbn. repeat split.
Qed.

(* ------------------------------------------------------------------ *)
(* For EVERY user code (no contract): once done() has been invoked in an iteration
   of an autonomous machine -- by a state function at any nesting depth, or because
   the last timed state expired -- the iteration ends with the machine off and
   unrequested, whatever follows (more transitions, next_state_now(), done() again):
   its done() withdraws the request, next_state_now() restores the request only
   while the machine is still executing, and a machine that is off stays off. *)

Definition done_stops (m' : sm) (ev : list event) : Prop := In EvDone ev -> Off m'.

Lemma Off_done_auto m : sh_auto sh = true -> Off (done sh m).
Proof. intros Ha. split; [apply done_engaged | rewrite done_should, Ha; reflexivity]. Qed.

Lemma expire_done_stops m now : sh_auto sh = true ->
  done_stops (s_m (expire sh m now)) (s_ev (expire sh m now)).
Proof.
  intros Ha. unfold done_stops. destruct (expire_spec sh m now) as [| |s dc _ _ _ _ Hd| |]; cbn;
    try (intros [E|[]]; discriminate); try contradiction.
  - rewrite done_should, Ha in Hd. discriminate.
  - intros _. apply Off_done_auto, Ha.
Qed.

Lemma select_done_stops x : sh_auto sh = true -> done_stops (s_m x) (s_ev x) ->
  done_stops (s_m (select sh x)) (s_ev (select sh x)).
Proof.
  intros Ha Hx. unfold done_stops, Off, select in *. rewrite fallback_engaged, fallback_should.
  unfold fallback, stop_if_engaged.
  destruct (s_st (deactivate sh x)) as [s|] eqn:Est; [cbn; rewrite Est, deactivate_ev, deactivate_m; exact Hx|].
  destruct (engaged (s_m (deactivate sh x)) && negb (s_done (deactivate sh x)));
    cbn [s_m s_st s_ev set]; rewrite ?Est; [intros _; apply Off_done_auto, Ha|].
  rewrite deactivate_m.
  destruct (sh_default sh) as [d|]; [destruct (is_some_eq (cur (s_m x)) d)|];
    cbn [s_ev set]; rewrite ?deactivate_ev, ?in_app_iff; [exact Hx | | exact Hx].
  intros [H|[H|[]]]; [apply Hx, H | discriminate].
Qed.

Lemma selected_done_stops m now : sh_auto sh = true ->
  done_stops (s_m (selected sh m now)) (s_ev (selected sh m now)).
Proof. intros Ha. unfold selected. apply select_done_stops, expire_done_stops; exact Ha. Qed.

Section Step.
Variable nested : sm -> Z -> sm * list event.
Hypothesis nested_off : forall m now, Off m -> Off (fst (nested m now)).
Hypothesis nested_done_stops : forall m now, done_stops (fst (nested m now)) (snd (nested m now)).

Lemma run_actions_done_stops acts m m' e : sh_auto sh = true ->
  actions_out sh nested acts m m' e -> done_stops m' e.
Proof.
  intros Ha. unfold done_stops.
  induction 1 as [m|a r m _|n r m m' e _ _ IH|r m m' e Hr _|n now' r m m' e _ Hr IH].
  - (* no action *) intros [].
  - (* unknown state *) intros [H|[]]. discriminate.
  - (* next_state *) rewrite in_done_after_off. intros [H|H]; [discriminate | exact (IH H)].
  - (* done: whatever follows runs on a machine that is off *)
    intros _. apply (run_actions_off sh nested nested_off _ _ _ _ Hr), Off_done_auto, Ha.
  - (* next_state_now: the done() is in the nested iteration or in the rest *)
    rewrite in_done_after_off. intros [H|[H|H]]; [discriminate|discriminate|].
    apply in_app_or in H. destruct H as [H|H]; [|exact (IH H)].
    apply (run_actions_off sh nested nested_off _ _ _ _ Hr).
    destruct (nested_done_stops _ _ H) as [Z1 Z2]. unfold restore. rewrite Z1. split; assumption.
Qed.

Lemma exec_step_done_stops m now : sh_auto sh = true ->
  done_stops (fst (exec_step sh body nested m now)) (snd (exec_step sh body nested m now)).
Proof.
  intros Ha. pose proof (selected_done_stops m now Ha) as Hx. unfold done_stops.
  assert (Hb : ~ In EvDone (back m now))
    by (unfold back; destruct (now <? clk m); [intros [H|[]]; discriminate | intros []]).
  pose proof (exec_step_spec sh body nested m now) as Hspec. revert Hx Hspec.
  generalize (selected sh m now). intros x Hx Hspec.
  destruct Hspec as [_|_ _ _|_ _ _|s m1 init bk m2 e _ _ Hbk tm stm Hrun]; rewrite ?in_app_iff.
  - intros H. destruct (Hb H).
  - intros [H|H]; [destruct (Hb H) | split; [apply (Hx H) | reflexivity]].
  - intros _. split; [apply done_engaged | reflexivity].
  - pose proof (enter_bk_should sh _ _ _ _ _ _ Hbk) as Hfs. pose proof (enter_bk_engaged sh _ _ _ _ _ _ Hbk) as Hfe.
    assert (Hfin : Off m2 -> Off (m2 <| should := false |>)) by (intros [Z1 _]; split; [exact Z1 | reflexivity]).
    intros [H|[H|[H|H]]]; apply Hfin.
    + destruct (Hb H).
    + apply (run_actions_off sh nested nested_off _ _ _ _ Hrun).
      destruct (Hx H) as [Z1 Z2]. split; cbn; congruence.
    + destruct (enter_bk_ev sh _ _ _ _ _ _ Hbk) as [->|(a & b & ->)]; [destruct H | destruct H as [H|[]]; discriminate].
    + destruct H as [H|H]; [discriminate|]. exact (run_actions_done_stops _ _ _ _ Ha Hrun H).
Qed.
End Step.

Theorem exec_done_stops fuel : forall m now, sh_auto sh = true ->
  done_stops (fst (exec sh body fuel m now)) (snd (exec sh body fuel m now)).
Proof.
  induction fuel as [|f IH]; intros m now Ha; cbn [exec].
  - cbn. intros [H|[]]. discriminate.
  - apply exec_step_done_stops; [apply exec_off | intros m' now'; exact (IH m' now' Ha) | exact Ha].
Qed.

Theorem auto_done_latches_off fuel m now : sh_auto sh = true -> auto_on m = true ->
  In EvDone (snd (step sh body fuel m (AOnIteration now))) ->
  let m' := fst (step sh body fuel m (AOnIteration now)) in
  auto_on m' = false /\ engaged m' = false.
Proof.
  intros Ha Hon. cbn [step]. rewrite Hon.
  assert (He1 : ~ In EvDone (snd (engage sh m None false))).
  { unfold engage. repeat break_match; cbn; intros H; repeat (destruct H as [H|H]; try discriminate); auto. }
  destruct (engage sh m None false) as [m1 e1]. cbn [snd] in He1.
  pose proof (exec_done_stops fuel m1 now Ha) as Hx.
  destruct (exec sh body fuel m1 now) as [m2 e2]. cbn [fst snd] in *.
  intros H. apply in_app_iff in H. destruct H as [H|H]; [contradiction|].
  destruct (Hx H) as [Z1 _]. cbn. auto.
Qed.

(* once the latch is off nothing at all runs until the next on_enable *)
Definition auto_idle_op (o : op) : bool :=
  match o with AOnIteration _ | AOnDisable => true | _ => false end.

Theorem auto_off_until_enable fuel h : forall m, sh_auto sh = true ->
  auto_on m = false -> engaged m = false -> forallb auto_idle_op h = true ->
  let '(m', es) := run sh body fuel m h in
  auto_on m' = false /\ engaged m' = false /\
  Forall (fun e => e = EvDone) (concat es).
Proof.
  induction h as [|o r IH]; intros m Ha Hoff He Hp; cbn [run].
  - repeat split; auto. constructor.
  - cbn [forallb] in Hp. apply andb_true_iff in Hp. destruct Hp as [Ho Hr].
    destruct o; try discriminate; cbn [step].
    + rewrite Hoff. specialize (IH m Ha Hoff He Hr).
      destruct (run sh body fuel m r) as [m2 es]. cbn [concat app]. exact IH.
    + assert (H1 : auto_on (done sh m) = false) by (unfold done; rewrite Ha; reflexivity).
      specialize (IH (done sh m) Ha H1 (done_engaged sh m) Hr).
      destruct (run sh body fuel (done sh m) r) as [m2 es]. cbn [concat].
      destruct IH as (I1 & I2 & I3). repeat split; auto. constructor; [reflexivity | exact I3].
Qed.

(* ... which starts again from the first state with tm at zero *)
Theorem auto_reenable_fresh fuel m now :
  engaged m = false -> (cur m = None \/ at_default sh m = true) -> clk m <= now ->
  let m0 := fst (step sh body (S fuel) m AOnEnable) in
  let f := sh_first sh in
  auto_on m0 = true /\
  exists e, snd (step sh body (S fuel) m0 (AOnIteration now)) =
            EvEnter f :: EvBk f (now + 0) (now + (0 + duration_of sh m f)) :: EvCall f 0 0 true true :: e.
Proof.
  intros He Hidle Hclk m0 f. destruct Hwf as (Hw1 & Hw2 & _).
  subst m0. cbn [step fst]. split; [reflexivity|].
  set (m0 := m <| auto_on := true |>).
  replace (auto_on m0) with true by reflexivity.
  destruct (restart_fresh sh body (exec sh body fuel) m0 now None false) as [Heng (m2 & e & Hex)]; auto.
  cbn [exec] in *. fold f in Heng, Hex.
  destruct (engage sh m0 None false) as [m1 e1]. cbn [fst snd] in *. subst e1.
  rewrite Hex. cbn. eexists. reflexivity.
Qed.

(* ------------------------------------------------------------------ *)
(* C01: without engage() the machine stops as soon as it is not inside a
   must_finish state: if no non-default state function was called in the
   iteration, it ends with the machine stopped (nothing need be assumed of
   the request: a requested state would have been called)               *)
Section Step2.
Variable nested : sm -> Z -> sm * list event.

Definition only_default_calls (t : list event) : Prop :=
  forall s tm stm i eng, In (EvCall s tm stm i eng) t -> is_default sh s = true.

Lemma exec_step_stops m now : Inv sh m ->
  ok (snd (exec_step sh body nested m now)) ->
  only_default_calls (snd (exec_step sh body nested m now)) ->
  engaged (fst (exec_step sh body nested m now)) = false.
Proof.
  intros HI. pose proof (selected_post sh m now Hwf HI) as HP.
  pose proof (exec_step_spec sh body nested m now) as Hspec. revert HP Hspec.
  generalize (selected sh m now). intros x HP Hspec.
  destruct Hspec as [Hsk|_ Hst _|_ _ _|s m1 init bk m2 e _ Hst Hbk tm stm Hrun]; intros Hok Honly.
  - unfold skips in Hsk. rewrite !andb_true_iff, negb_true_iff in Hsk. apply Hsk.
  - apply ok_app in Hok. destruct (HP (proj1 Hok) (proj2 Hok)) as [(Hc & _) HQ].
    pose proof (Q_cur sh _ HQ) as Hq. rewrite <- Hc, Hst in Hq. exact Hq.
  - apply done_engaged.
  - (* the one state function called is the default state: the machine is off, and the
       default state cannot act *)
    rewrite !ok_app, ok_cons in Hok. destruct Hok as (Hback & Hokx & _ & _ & Hok).
    destruct (HP Hback Hokx) as [(Hc & _) HQ]. pose proof (Q_cur sh _ HQ) as Hq. rewrite <- Hc, Hst in Hq.
    assert (Hd : is_default sh s = true).
    { eapply Honly. rewrite !in_app_iff. right. right. right. left. reflexivity. }
    assert (Hex : engaged (s_m x) = false)
      by (rewrite Hd in Hq; destruct (engaged (s_m x)); [discriminate | reflexivity]).
    pose proof (enter_bk_engaged sh _ _ _ _ _ _ Hbk) as Hfe.
    destruct (run_actions_idle sh nested _ _ _ _ Hrun) as [-> _]; [cbn; congruence | exact Hok|].
    cbn. congruence.
Qed.
End Step2.

Theorem exec_stops fuel m now : Inv sh m ->
  ok (snd (exec sh body fuel m now)) ->
  only_default_calls (snd (exec sh body fuel m now)) ->
  engaged (fst (exec sh body fuel m now)) = false /\
  (engaged m = true -> In EvDone (snd (exec sh body fuel m now))).
Proof.
  intros HI Hok Honly. destruct fuel as [|fuel]; [destruct (not_ok_err _ Hok)|]. cbn [exec] in *.
  pose proof (exec_step_stops (exec sh body fuel) m now HI Hok Honly) as He.
  split; [exact He|]. intros Hm.
  destruct (exec_step_drop sh body (exec sh body fuel) (exec_drop sh body fuel) m now) as [H|H];
    [exact H | specialize (H Hm); congruence].
Qed.

End P.
