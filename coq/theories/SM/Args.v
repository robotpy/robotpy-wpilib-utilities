(* C03: the call adapter, and initial_call = "first call since the state was
   entered", for every history (no usage contract needed). *)
From Coq Require Import ZArith List Bool Lia.
From RecordUpdate Require Import RecordSet.
Import ListNotations RecordSetNotations.
From RV Require Import SM.Model SM.Basics.
Open Scope Z_scope.

(* ---- the adapter ---------------------------------------------------- *)
Lemma adapter_nth ps tm stm init i p :
  nth_error ps i = Some p ->
  nth_error (adapter ps tm stm init) i = Some (arg_value tm stm init p).
Proof. intros H. unfold adapter. rewrite nth_error_map, H. reflexivity. Qed.

Lemma adapter_length ps tm stm init : length (adapter ps tm stm init) = length ps.
Proof. apply map_length. Qed.

(* all 16 duplicate-free ordered subsets of the three optional parameters *)
Definition all_param_orders : list (list param) :=
  [ []; [PTm]; [PStateTm]; [PInitial];
    [PTm; PStateTm]; [PTm; PInitial]; [PStateTm; PTm]; [PStateTm; PInitial];
    [PInitial; PTm]; [PInitial; PStateTm];
    [PTm; PStateTm; PInitial]; [PTm; PInitial; PStateTm]; [PStateTm; PTm; PInitial];
    [PStateTm; PInitial; PTm]; [PInitial; PTm; PStateTm]; [PInitial; PStateTm; PTm] ].

(* ---- initial_call --------------------------------------------------- *)
(* the reference: per state, "entered since its last call" *)
Definition pending := name -> bool.

Definition ref_step (r : pending) (e : event) : option pending :=
  match e with
  | EvEnter s => Some (upd r s true)            (* next_state(s): by engage, a body, expiry, restart *)
  | EvFallback s => Some (upd r s true)         (* the default state takes over *)
  | EvCall s _ _ init _ => if Bool.eqb init (r s) then Some (upd r s false) else None
  | _ => Some r
  end.

Fixpoint ref_run (r : pending) (t : list event) : option pending :=
  match t with
  | [] => Some r
  | e :: t' => match ref_step r e with Some r' => ref_run r' t' | None => None end
  end.

(* [accepts r t r']: every call in t has initial_call = "pending", ending in r' *)
Definition accepts (r : pending) (t : list event) (r' : pending) : Prop := ref_run r t = Some r'.

Lemma accepts_app r a b r1 r2 : accepts r a r1 -> accepts r1 b r2 -> accepts r (a ++ b) r2.
Proof.
  revert r. induction a as [|e a IH]; intros r; cbn.
  - intros [= ->]. auto.
  - unfold accepts in *. cbn. destruct (ref_step r e); [apply IH | discriminate].
Qed.
Lemma accepts_nil r : accepts r [] r. Proof. reflexivity. Qed.

Definition agree (r : pending) (m : sm) : Prop := forall s, r s = negb (ran (sdat m s)).

(* [tracks m t m']: a reference that agrees with m accepts t and then agrees with m'.
   Reflexive and transitive, so it is proved of execute() piece by piece. *)
Definition tracks (m : sm) (t : list event) (m' : sm) : Prop :=
  forall r, agree r m -> exists r', accepts r t r' /\ agree r' m'.

Lemma tracks_trans m1 a m2 b m3 : tracks m1 a m2 -> tracks m2 b m3 -> tracks m1 (a ++ b) m3.
Proof.
  intros H1 H2 r Hr. destruct (H1 r Hr) as (r1 & Ha & Hr1). destruct (H2 r1 Hr1) as (r2 & Hb & Hr2).
  exists r2. split; [eapply accepts_app; eassumption | exact Hr2].
Qed.

(* only the _StateData objects matter *)
Lemma tracks_from m0 m t m' : sdat m0 = sdat m -> tracks m t m' -> tracks m0 t m'.
Proof. intros E H r Hr. apply H. intros s. rewrite <- E. apply Hr. Qed.
Lemma tracks_to m t m' m1 : sdat m1 = sdat m' -> tracks m t m' -> tracks m t m1.
Proof. intros E H r Hr. destruct (H r Hr) as (r' & Ha & Hr'). exists r'. split; [exact Ha|]. intros s. rewrite E. apply Hr'. Qed.

(* events the reference does not look at *)
Definition ignored_ev (e : event) : Prop :=
  match e with EvEnter _ | EvFallback _ | EvCall _ _ _ _ _ => False | _ => True end.

Lemma tracks_ignored m t : Forall ignored_ev t -> tracks m t m.
Proof.
  intros Ht r Hr. exists r. split; [|exact Hr].
  induction Ht as [|[] t He _ IH]; cbn in *; try exact IH; try contradiction. reflexivity.
Qed.
Lemma tracks_nil m m' : sdat m' = sdat m -> tracks m [] m'.
Proof. intros E. eapply tracks_to; [exact E | apply tracks_ignored; constructor]. Qed.

Lemma off_idle_ignored m : Forall ignored_ev (off_if_idle m).
Proof. unfold off_if_idle. destruct (engaged m); repeat constructor. Qed.

Section P.
Variable sh : shape.
Variable body : nat -> name -> Z -> Z -> bool -> list action.

Lemma off_default_ignored s : Forall ignored_ev (off_if_default sh s).
Proof. unfold off_if_default. destruct (is_default sh s); repeat constructor. Qed.

(* an entry makes the state pending, whichever way it is entered *)
Lemma tracks_reenter m s e m1 : (e = EvEnter s \/ e = EvFallback s) ->
  sdat m1 = upd (sdat m) s (sdat m s <| ran := false |>) -> tracks m [e] m1.
Proof.
  intros He E r Hr. exists (upd r s true). split; [destruct He as [-> | ->]; reflexivity|].
  intros s0. rewrite E. unfold upd. destruct (Nat.eqb s0 s); [reflexivity | apply Hr].
Qed.
Lemma tracks_next_state m n : tracks m [EvEnter n] (next_state m n).
Proof. apply (tracks_reenter m n); auto. Qed.
Lemma tracks_done m : tracks m [EvDone] (done sh m).
Proof. eapply tracks_to; [apply done_sdat | apply tracks_ignored; repeat constructor]. Qed.

Lemma engage_tracks m i f : tracks m (snd (engage sh m i f)) (fst (engage sh m i f)).
Proof.
  unfold engage.
  destruct (f || is_none (cur (m <| should := true |>)) || at_default sh (m <| should := true |>));
    [|apply tracks_nil; reflexivity].
  set (s := match i with Some s => s | None => sh_first sh end).
  destruct (is_state sh s); cbn [fst snd];
    [|eapply tracks_to; [|apply tracks_ignored; repeat constructor]; reflexivity].
  apply (tracks_trans _ _ m); [apply tracks_ignored, off_default_ignored|].
  apply (tracks_reenter m s); [auto | reflexivity].
Qed.

Lemma expire_tracks m now : tracks m (s_ev (expire sh m now)) (s_m (expire sh m now)).
Proof.
  destruct (expire_spec sh m now); cbn [s_ev s_m keep_sel].
  - apply tracks_nil; reflexivity.
  - apply tracks_next_state.
  - apply (tracks_trans _ [EvDone] _ _ _ (tracks_done m)).
    apply (tracks_reenter _ (sh_first sh)); [auto | reflexivity].
  - apply tracks_done.
  - apply tracks_ignored; repeat constructor.
Qed.

(* the stop is invisible to the reference, the fall-back is an entry of the default state *)
Lemma stop_tracks m x : tracks m (s_ev x) (s_m x) ->
  tracks m (s_ev (stop_if_engaged sh x)) (s_m (stop_if_engaged sh x)).
Proof.
  intros H. unfold stop_if_engaged. repeat break_match; try exact H. cbn [s_ev s_m set].
  exact (tracks_trans _ _ _ _ _ H (tracks_done _)).
Qed.
Lemma fallback_tracks m x : tracks m (s_ev x) (s_m x) ->
  tracks m (s_ev (fallback sh x)) (s_m (fallback sh x)).
Proof.
  intros H. unfold fallback. repeat break_match; try exact H. cbn [s_ev s_m set].
  apply (tracks_trans _ _ _ _ _ H). apply (tracks_reenter _ n); [auto | reflexivity].
Qed.
Lemma select_tracks m x : tracks m (s_ev x) (s_m x) -> tracks m (s_ev (select sh x)) (s_m (select sh x)).
Proof. intros H. apply fallback_tracks, stop_tracks. rewrite deactivate_m, deactivate_ev. exact H. Qed.

Lemma selected_tracks m now : tracks m (s_ev (selected sh m now)) (s_m (selected sh m now)).
Proof.
  unfold selected. apply select_tracks. eapply tracks_from; [|apply expire_tracks].
  rewrite latch_sdat. reflexivity.
Qed.

(* the call passes initial_call = not ran, which is "pending" for a reference that agrees *)
Lemma tracks_call m s nss m1 init bk tm stm eng : enter_bk sh m s nss = (m1, init, bk) ->
  tracks m (bk ++ [EvCall s tm stm init eng]) (m1 <| ncall := S (ncall m1) |>).
Proof.
  intros Hbk. destruct (enter_bk_spec sh _ _ _ _ _ _ Hbk) as (Hinit & Hran1 & Hoth).
  apply (tracks_trans _ _ m); [apply tracks_ignored; destruct (enter_bk_ev sh _ _ _ _ _ _ Hbk) as [->|(a & e & ->)]; repeat constructor|].
  intros r Hr. exists (upd r s false). split.
  - unfold accepts. cbn. rewrite Hinit, (Hr s), Bool.eqb_reflx. reflexivity.
  - intros s0. cbn. unfold upd. destruct (Nat.eqb_spec s0 s) as [->|Hne];
      [rewrite Hran1; reflexivity | rewrite Hoth by exact Hne; apply Hr].
Qed.

Section Step.
Variable nested : sm -> Z -> sm * list event.
Hypothesis nested_tracks : forall m now, tracks m (snd (nested m now)) (fst (nested m now)).

Lemma run_actions_tracks acts m m' e : actions_out sh nested acts m m' e -> tracks m e m'.
Proof.
  induction 1 as [m|a r m _|n r m m' e _ _ IH|r m m' e _ IH|n now' r m m' e _ _ IH].
  - apply tracks_nil; reflexivity.
  - apply tracks_ignored; repeat constructor.
  - apply (tracks_trans _ _ m); [apply tracks_ignored, off_idle_ignored|].
    apply (tracks_trans _ _ m); [apply tracks_ignored, off_default_ignored|].
    apply (tracks_trans _ [EvEnter n] _ _ _ (tracks_next_state m n) IH).
  - apply (tracks_trans _ _ m); [apply tracks_ignored, off_idle_ignored|].
    exact (tracks_trans _ [EvDone] _ _ _ (tracks_done m) IH).
  - apply (tracks_trans _ _ m); [apply tracks_ignored, off_idle_ignored|].
    apply (tracks_trans _ _ m); [apply tracks_ignored, off_default_ignored|].
    apply (tracks_trans _ [EvNow] m); [apply tracks_ignored; repeat constructor|].
    apply (tracks_trans _ [EvEnter n] _ _ _ (tracks_next_state m n)).
    apply (tracks_trans _ _ _ _ _ (nested_tracks (next_state m n) now')).
    eapply tracks_from; [|exact IH]. unfold restore. destruct (engaged _); reflexivity.
Qed.

Lemma exec_step_tracks m now :
  tracks m (snd (exec_step sh body nested m now)) (fst (exec_step sh body nested m now)).
Proof.
  assert (Hb : tracks m (back m now) m)
    by (apply tracks_ignored; unfold back; destruct (now <? clk m); repeat constructor).
  pose proof (selected_tracks m now) as Hx.
  pose proof (exec_step_spec sh body nested m now) as Hspec. revert Hx Hspec.
  generalize (selected sh m now). intros x Hx Hspec.
  destruct Hspec as [_|_ _ _|_ _ _|s m1 init bk m2 e _ _ Hbk tm stm Hrun].
  - eapply tracks_to; [|exact Hb]. reflexivity.
  - eapply tracks_to; [|exact (tracks_trans _ _ _ _ _ Hb Hx)]. reflexivity.
  - apply (tracks_trans _ _ _ _ _ Hb), (tracks_trans _ _ _ _ _ Hx).
    eapply tracks_to; [|apply tracks_done]. reflexivity.
  - apply (tracks_trans _ _ _ _ _ Hb), (tracks_trans _ _ _ _ _ Hx).
    change (bk ++ EvCall s tm stm init (engaged m1) :: e) with (bk ++ [EvCall s tm stm init (engaged m1)] ++ e).
    rewrite app_assoc. apply (tracks_trans _ _ _ _ _ (tracks_call _ _ _ _ _ _ _ _ _ Hbk)).
    eapply tracks_to; [|exact (run_actions_tracks _ _ _ _ Hrun)]. reflexivity.
Qed.
End Step.

Lemma exec_tracks fuel : forall m now, tracks m (snd (exec sh body fuel m now)) (fst (exec sh body fuel m now)).
Proof.
  induction fuel as [|f IH]; intros m now; cbn [exec];
    [apply tracks_ignored; repeat constructor | apply exec_step_tracks, IH].
Qed.

Lemma step_tracks fuel m o : tracks m (snd (step sh body fuel m o)) (fst (step sh body fuel m o)).
Proof.
  destruct o; cbn [step fst snd]; try apply tracks_done; try (apply tracks_nil; reflexivity).
  - apply engage_tracks.
  - apply exec_tracks.
  - destruct (auto_on m); [|apply tracks_nil; reflexivity].
    pose proof (engage_tracks m None false) as H1.
    destruct (engage sh m None false) as [m1 e1]. pose proof (exec_tracks fuel m1 now) as H2.
    destruct (exec sh body fuel m1 now) as [m2 e2]. cbn [fst snd] in *.
    eapply tracks_to; [|exact (tracks_trans _ _ _ _ _ H1 H2)]. reflexivity.
Qed.

(* over whole histories: every initial_call ever passed is "first call since the
   state was entered" *)
Theorem run_tracks fuel h : forall m,
  tracks m (concat (snd (run sh body fuel m h))) (fst (run sh body fuel m h)).
Proof.
  induction h as [|o rest IH]; intros m; [apply tracks_nil; reflexivity|].
  rewrite run_cons_fst, run_cons_snd. exact (tracks_trans _ _ _ _ _ (step_tracks fuel m o) (IH _)).
Qed.

Lemma agree_init durs : agree (fun _ => true) (init_sm durs).
Proof. intros s. reflexivity. Qed.

End P.
