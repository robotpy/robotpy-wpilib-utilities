(* C02/C03: what one iteration does to a timed state -- it holds the state until
   its expiry, hands over at the first iteration past it with the successor's
   clock starting at the expiry instant, restarts a still-requested machine in
   a clock frame moved to the expiry instant, and always runs a freshly entered
   state once. *)
From Coq Require Import ZArith List Bool Lia.
From RecordUpdate Require Import RecordSet.
Import ListNotations RecordSetNotations.
From RV Require Import SM.Model SM.Basics.
Open Scope Z_scope.

Section P.
Variable sh : shape.
Variable body : nat -> name -> Z -> Z -> bool -> list action.
Variable nested : sm -> Z -> sm * list event.

(* the state function [s] is invoked on machine [mcall] (bookkeeping done), after
   the events [pre]; whatever its body does follows *)
Definition finish_call (mcall : sm) (s : name) (tm stm : Z) (init : bool) (pre : list event)
  : sm * list event :=
  let '(m2, e) := run_actions sh nested (body (ncall mcall) s tm stm init)
                    (mcall <| ncall := S (ncall mcall) |>) in
  (m2 <| should := false |>, pre ++ EvCall s tm stm init (engaged mcall) :: e).

Lemma finish_call_shape mcall s tm stm init pre : engaged mcall = true ->
  exists m2 e, finish_call mcall s tm stm init pre = (m2, pre ++ EvCall s tm stm init true :: e).
Proof.
  intros He. unfold finish_call. rewrite He.
  destruct (run_actions sh nested (body (ncall mcall) s tm stm init) (mcall <| ncall := S (ncall mcall) |>)) as [m2 e].
  eauto.
Qed.

Definition requested_or_must (m : sm) (s : name) : Prop := (should m || is_must sh s)%bool = true.

(* an iteration whose expiry phase leaves a state that is requested or must finish calls it *)
Lemma exec_step_call m now x s :
  skips sh m = false -> clk m <= now ->
  expire sh (latch (m <| clk := now |>) now) now = x -> s_st x = Some s -> requested_or_must (s_m x) s ->
  exec_step sh body nested m now =
    (let '(m1, init, bk) := enter_bk sh (s_m x) s (s_nss x) in
     finish_call m1 s (s_tm x) (s_tm x - st_start (sdat m1 s)) init (s_ev x ++ bk)).
Proof.
  intros Hsk Hclk Hx Hs Hk.
  assert (Hsel : selected sh m now = x)
    by (unfold selected; rewrite Hx; apply select_kept; exists s; auto).
  rewrite exec_step_eq, Hsk, Hsel. cbv zeta. rewrite Hs.
  unfold back. destruct (Z.ltb_spec now (clk m)); [lia|].
  destruct (enter_bk sh (s_m x) s (s_nss x)) as [[m1 init] bk]. unfold finish_call.
  destruct (run_actions sh nested _ _) as [m2 e]. cbn [app]. rewrite <- app_assoc. reflexivity.
Qed.

(* ... in particular when the machine is executing: the latch does nothing *)
Lemma exec_step_running m now x s :
  engaged m = true -> clk m <= now ->
  expire sh (m <| clk := now |>) now = x -> s_st x = Some s -> requested_or_must (s_m x) s ->
  exec_step sh body nested m now =
    (let '(m1, init, bk) := enter_bk sh (s_m x) s (s_nss x) in
     finish_call m1 s (s_tm x) (s_tm x - st_start (sdat m1 s)) init (s_ev x ++ bk)).
Proof.
  intros He Hclk Hx. apply exec_step_call; [unfold skips; rewrite He; reflexivity | exact Hclk|].
  rewrite latch_engaged_id; [exact Hx | exact He].
Qed.

(* T1: the state that has run keeps running until tm exceeds its expiry *)
Theorem holds_until_expiry_eq m now s :
  engaged m = true -> cur m = Some s -> ran (sdat m s) = true ->
  now - start m <= st_exp (sdat m s) -> requested_or_must m s -> clk m <= now ->
  exec_step sh body nested m now =
  finish_call (m <| clk := now |>) s (now - start m) (now - start m - st_start (sdat m s)) false [].
Proof.
  intros He Hc Hr Hx Hk Hclk. set (mc := m <| clk := now |>).
  rewrite (exec_step_running m now _ s He Hclk (expire_keep sh mc now s Hc (or_intror Hx)) eq_refl Hk).
  unfold keep_sel. cbn [s_m s_nss s_tm s_ev].
  rewrite (enter_bk_ran sh _ s) by exact Hr. reflexivity.
Qed.

Theorem holds_until_expiry m now s :
  engaged m = true -> cur m = Some s -> ran (sdat m s) = true ->
  now - start m <= st_exp (sdat m s) -> requested_or_must m s -> clk m <= now ->
  exists m2 e,
    exec_step sh body nested m now =
    (m2, EvCall s (now - start m) (now - start m - st_start (sdat m s)) false true :: e).
Proof.
  intros He Hc Hr Hx Hk Hclk. rewrite (holds_until_expiry_eq m now s) by assumption.
  apply finish_call_shape, He.
Qed.

(* T2: on the first iteration with tm > expiry control passes to next_state, whose
   clock starts at the predecessor's expiry (not at this iteration) and whose own
   expiry is that instant plus its duration tunable as it is now *)
Theorem expiry_hands_over_eq m now s dc n :
  engaged m = true -> cur m = Some s -> ran (sdat m s) = true ->
  st_exp (sdat m s) < now - start m ->
  lookup sh s = Some dc -> d_timed dc = true -> d_next dc = Some n -> is_state sh n = true ->
  requested_or_must m n -> clk m <= now ->
  let x := st_exp (sdat m s) in
  let mn := next_state (m <| clk := now |>) n in
  exec_step sh body nested m now =
  finish_call (bk_m sh mn n x) n (now - start m) (now - start m - x) true [EvEnter n; bk_ev sh mn n x].
Proof.
  intros He Hc Hr Hx Hl Ht Hn Hsn Hk Hclk x mn. set (mc := m <| clk := now |>) in *.
  rewrite (exec_step_running m now _ n He Hclk (expire_next sh mc now s dc n Hc Hr Hx Hl Ht Hn Hsn) eq_refl Hk).
  cbn [s_m s_nss s_tm s_ev]. rewrite enter_bk_fresh by apply next_state_ran.
  fold mn. change (st_exp (sdat mc s)) with x.
  rewrite bk_m_sdat. reflexivity.
Qed.

Theorem expiry_hands_over m now s dc n :
  engaged m = true -> cur m = Some s -> ran (sdat m s) = true ->
  st_exp (sdat m s) < now - start m ->
  lookup sh s = Some dc -> d_timed dc = true -> d_next dc = Some n -> is_state sh n = true ->
  requested_or_must m n -> clk m <= now ->
  let x := st_exp (sdat m s) in
  exists m2 e,
    exec_step sh body nested m now =
    (m2, EvEnter n :: EvBk n (start m + x) (start m + (x + duration_of sh m n))
         :: EvCall n (now - start m) (now - start m - x) true true :: e).
Proof.
  intros He Hc Hr Hx Hl Ht Hn Hsn Hk Hclk x.
  rewrite (expiry_hands_over_eq m now s dc n) by assumption. apply finish_call_shape, He.
Qed.

(* T3a: the last timed state expired and the machine is still requested: done(),
   then the first state starts over in a clock frame whose origin is the expiry
   instant: tm restarts at (now - expiry), not at 0 and not at now *)
Theorem expiry_cycles_eq m now s dc :
  sh_auto sh = false -> should m = true ->
  engaged m = true -> cur m = Some s -> ran (sdat m s) = true ->
  st_exp (sdat m s) < now - start m ->
  lookup sh s = Some dc -> d_timed dc = true -> d_next dc = None -> clk m <= now ->
  let x := st_exp (sdat m s) in
  let f := sh_first sh in
  let mn := next_state (done sh (m <| clk := now |>) <| start := start m + x |> <| engaged := true |>) f in
  exec_step sh body nested m now =
  finish_call (bk_m sh mn f 0) f (now - start m - x) (now - start m - x - 0) true [EvDone; EvEnter f; bk_ev sh mn f 0].
Proof.
  intros Ha Hs He Hc Hr Hx Hl Ht Hn Hclk x f mn.
  set (mc := m <| clk := now |>).
  assert (Hsd : should (done sh mc) = true) by (rewrite done_should_plain by exact Ha; exact Hs).
  pose proof (expire_last sh mc now s dc Hc Hr Hx Hl Ht Hn) as Hexp. rewrite Hsd in Hexp.
  rewrite (exec_step_running m now _ f He Hclk Hexp eq_refl);
    [|unfold requested_or_must; cbn; rewrite Hsd; reflexivity].
  cbn [s_m s_nss s_tm s_ev]. rewrite enter_bk_fresh by apply next_state_ran.
  rewrite done_start. change (start mc) with (start m).
  change (st_exp (sdat mc s)) with x. fold f. fold mn.
  rewrite bk_m_sdat. reflexivity.
Qed.

Theorem expiry_cycles m now s dc :
  sh_auto sh = false -> should m = true ->
  engaged m = true -> cur m = Some s -> ran (sdat m s) = true ->
  st_exp (sdat m s) < now - start m ->
  lookup sh s = Some dc -> d_timed dc = true -> d_next dc = None -> clk m <= now ->
  let x := st_exp (sdat m s) in
  let f := sh_first sh in
  exists m2 e,
    exec_step sh body nested m now =
    (m2, EvDone :: EvEnter f :: EvBk f (start m + x) (start m + x + duration_of sh m f)
         :: EvCall f (now - start m - x) (now - start m - x - 0) true true :: e).
Proof.
  intros Ha Hs He Hc Hr Hx Hl Ht Hn Hclk x f.
  rewrite (expiry_cycles_eq m now s dc) by assumption. fold x f.
  set (mn := next_state _ f).
  (* the restarted machine has the durations of [m], and its clock origin is the expiry instant *)
  assert (Ebk : bk_ev sh mn f 0 = EvBk f (start m + x) (start m + x + duration_of sh m f)).
  { unfold bk_ev. rewrite (duration_of_dur sh m mn f) by exact (done_dur sh (m <| clk := now |>)).
    change (start mn) with (start m + x). f_equal; lia. }
  rewrite Ebk. apply finish_call_shape. reflexivity.
Qed.

(* T3b: requested or not, the expiry of the last timed state calls done() before anything
   else happens in the iteration *)
Theorem expiry_calls_done m now s dc :
  engaged m = true -> cur m = Some s -> ran (sdat m s) = true ->
  st_exp (sdat m s) < now - start m ->
  lookup sh s = Some dc -> d_timed dc = true -> d_next dc = None -> clk m <= now ->
  exists e, snd (exec_step sh body nested m now) = EvDone :: e.
Proof.
  intros He Hc Hr Hx Hl Ht Hn Hclk.
  assert (Hev : exists e, s_ev (selected sh m now) = EvDone :: e).
  { unfold selected. set (mc := m <| clk := now |>). rewrite latch_engaged_id by exact He.
    destruct (select_ev sh (expire sh mc now)) as (t & -> & _).
    rewrite (expire_last sh mc now s dc Hc Hr Hx Hl Ht Hn). destruct (should (done sh _)); cbn; eauto. }
  assert (Hb : back m now = []) by (unfold back; destruct (Z.ltb_spec now (clk m)); [lia | reflexivity]).
  pose proof (exec_step_spec sh body nested m now) as Hspec. revert Hev Hspec.
  generalize (selected sh m now). intros x (e0 & Hev) Hspec.
  destruct Hspec as [Hsk| | |]; rewrite ?Hb, ?Hev; cbn; eauto.
  unfold skips in Hsk. rewrite He in Hsk. discriminate.
Qed.

(* T4: a state that has just been entered is always run once, with initial_call,
   whatever tm is (also when tm is already past a stale expiry) *)
Theorem entered_runs_once_eq m now s :
  engaged m = true -> cur m = Some s -> ran (sdat m s) = false ->
  requested_or_must m s -> clk m <= now ->
  let tm := now - start m in
  let mc := m <| clk := now |> in
  exec_step sh body nested m now = finish_call (bk_m sh mc s tm) s tm (tm - tm) true [bk_ev sh mc s tm].
Proof.
  intros He Hc Hr Hk Hclk tm mc.
  rewrite (exec_step_running m now _ s He Hclk (expire_keep sh mc now s Hc (or_introl Hr)) eq_refl Hk).
  unfold keep_sel. cbn [s_m s_nss s_tm s_ev].
  rewrite (enter_bk_fresh sh mc s) by exact Hr. change (start mc) with (start m). fold tm.
  rewrite bk_m_sdat. reflexivity.
Qed.

Theorem entered_runs_once m now s :
  engaged m = true -> cur m = Some s -> ran (sdat m s) = false ->
  requested_or_must m s -> clk m <= now ->
  let tm := now - start m in
  exists m2 e,
    exec_step sh body nested m now =
    (m2, EvBk s (start m + tm) (start m + (tm + duration_of sh m s))
         :: EvCall s tm (tm - tm) true true :: e).
Proof.
  intros He Hc Hr Hk Hclk tm. rewrite (entered_runs_once_eq m now s) by assumption.
  apply finish_call_shape, He.
Qed.

(* T5: engage() on a stopped machine, then the first iteration: the requested
   initial state (or the first state) is called with tm = 0, state_tm = 0,
   initial_call = True, and the machine is executing *)
Theorem restart_fresh_eq m now init force :
  engaged m = false -> (cur m = None \/ at_default sh m = true) -> clk m <= now ->
  let tgt := match init with Some s => s | None => sh_first sh end in
  is_state sh tgt = true -> is_default sh tgt = false ->
  let ml := next_state (m <| should := true |>) tgt <| clk := now |> <| start := now |> <| engaged := true |> in
  engage sh m init force = (next_state (m <| should := true |>) tgt, [EvEnter tgt]) /\
  exec_step sh body nested (next_state (m <| should := true |>) tgt) now =
  finish_call (bk_m sh ml tgt 0) tgt 0 0 true [bk_ev sh ml tgt 0].
Proof.
  intros He Hidle Hclk tgt Hst Hd ml.
  assert (Heng : engage sh m init force = (next_state (m <| should := true |>) tgt, [EvEnter tgt])).
  { rewrite engage_eq. cbv zeta. fold tgt. rewrite Hst, Hd.
    destruct Hidle as [Hn|Hn]; rewrite Hn.
    - cbn [is_none]. rewrite orb_true_r. reflexivity.
    - rewrite orb_true_r. reflexivity. }
  split; [exact Heng|].
  set (m1 := next_state (m <| should := true |>) tgt).
  set (mc := m1 <| clk := now |>).
  assert (Hl : latch mc now = ml) by (unfold latch; cbn; rewrite He; reflexivity).
  assert (Hran : ran (sdat ml tgt) = false) by apply next_state_ran.
  rewrite (exec_step_call m1 now (keep_sel ml now (Some tgt)) tgt);
    [| unfold skips; cbn; rewrite andb_false_r; reflexivity | exact Hclk
     | fold mc; rewrite Hl; apply expire_keep; [reflexivity | left; exact Hran] | reflexivity | reflexivity].
  unfold keep_sel. cbn [s_m s_nss s_tm s_ev].
  rewrite enter_bk_fresh by exact Hran.
  replace (start ml) with now by reflexivity. rewrite Z.sub_diag, bk_m_sdat. reflexivity.
Qed.

Theorem restart_fresh m now init force :
  engaged m = false -> (cur m = None \/ at_default sh m = true) -> clk m <= now ->
  let tgt := match init with Some s => s | None => sh_first sh end in
  is_state sh tgt = true -> is_default sh tgt = false ->
  let m1 := fst (engage sh m init force) in
  snd (engage sh m init force) = [EvEnter tgt] /\
  exists m2 e,
    exec_step sh body nested m1 now =
    (m2, EvBk tgt (now + 0) (now + (0 + duration_of sh m tgt)) :: EvCall tgt 0 0 true true :: e).
Proof.
  intros He Hidle Hclk tgt Hst Hd m1.
  destruct (restart_fresh_eq m now init force He Hidle Hclk Hst Hd) as [Heng Hex]. fold tgt in Heng, Hex.
  subst m1. rewrite Heng. cbn [fst snd]. split; [reflexivity|]. rewrite Hex.
  apply finish_call_shape. reflexivity.
Qed.

(* a NetworkTables write to a duration after the state was entered does not move
   its expiry; a write before entry is what the bookkeeping above reads *)
Lemma set_duration_frame fuel m s d :
  let m' := fst (step sh body fuel m (SetDuration s d)) in
  sdat m' = sdat m /\ cur m' = cur m /\ start m' = start m /\ engaged m' = engaged m
  /\ should m' = should m /\ dur m' s = d /\ (forall x, x <> s -> dur m' x = dur m x).
Proof.
  cbn. repeat split; auto.
  - unfold upd. rewrite Nat.eqb_refl. reflexivity.
  - intros x Hx. unfold upd. destruct (Nat.eqb_spec x s); congruence.
Qed.

End P.
