(* C01/C04: the external operations keep the invariant, hence so do whole histories;
   stopping always goes through done(); a stopped machine runs nothing but its
   default state until engage(). *)
From Coq Require Import ZArith List Bool Lia.
From RecordUpdate Require Import RecordSet.
Import ListNotations RecordSetNotations.
From RV Require Import SM.Model SM.Basics SM.Engage SM.Invariants.
Open Scope Z_scope.

Section P.
Variable sh : shape.
Variable body : nat -> name -> Z -> Z -> bool -> list action.
Hypothesis Hwf : wf_shape sh.

Notation Inv := (Inv sh).

(* ------------------------------------------------------------------ *)
(* external operations preserve the invariant                          *)

Lemma engage_inv m i f : Inv m -> ok (snd (engage sh m i f)) -> Inv (fst (engage sh m i f)).
Proof.
  intros (Ha & Hb & Hc & Ht1 & Ht2). rewrite engage_eq. cbv zeta.
  destruct (f || is_none (cur m) || at_default sh m) eqn:Econd.
  - set (s := match i with Some s => s | None => sh_first sh end).
    destruct (is_state sh s) eqn:Es; cbn [fst snd]; [|intros H; exfalso; eapply not_ok_err, H].
    intros Hok. apply ok_app in Hok. destruct Hok as [Hoff _].
    assert (Hd : is_default sh s = false).
    { destruct (is_default sh s); auto. exfalso. eapply not_ok_off, Hoff. }
    unfold Invariants.Inv, running, stopped, timing.
    rewrite next_state_engaged, next_state_cur, next_state_nt, next_state_start, next_state_clk, next_state_should.
    cbn [engaged should set].
    split; [intros _; exists s; auto|]. split; [intros _ H; discriminate|].
    split; [intros _ _; split; [reflexivity|]; intros s0 [= <-]; split; [apply next_state_ran | exact Hd]|].
    split; [exact Ht1|]. intros s0 [= <-]. rewrite next_state_ran. discriminate.
  - cbn [fst snd]. intros _.
    apply orb_false_iff in Econd. destruct Econd as [Econd Ead].
    apply orb_false_iff in Econd. destruct Econd as [_ Enone].
    unfold Invariants.Inv. cbn.
    split; [exact Ha|]. split; [intros _ H; discriminate|].
    split; [|split; [exact Ht1 | exact Ht2]].
    intros He _. destruct (should m) eqn:Esm.
    + apply Hc; auto.
    + exfalso. destruct (Hb He eq_refl) as ([Hn|(d & Hd & Hcd)] & _).
      * rewrite Hn in Enone. discriminate.
      * unfold at_default in Ead. rewrite Hcd, Hd, Nat.eqb_refl in Ead. discriminate.
Qed.

Lemma done_inv m : Inv (done sh m).
Proof. apply Inv_off; [apply done_engaged | apply done_cur | apply done_nt]. Qed.

Lemma Inv_frame m m' : Inv m ->
  engaged m' = engaged m -> should m' = should m -> cur m' = cur m -> nt_cur m' = nt_cur m ->
  start m' = start m -> clk m' = clk m -> sdat m' = sdat m -> Inv m'.
Proof.
  intros HI E1 E2 E3 E4 E5 E6 E7. unfold Invariants.Inv, running, stopped, timing, cur_idle in *.
  rewrite E1, E2, E3, E4, E5, E6, E7. exact HI.
Qed.

Definition trace_of (es : list (list event)) : list event := concat es.

Lemma engage_silent m i f : silent (snd (engage sh m i f)).
Proof. unfold engage. repeat break_match; cbn; repeat constructor. Qed.

Lemma step_inv fuel m o : Inv m -> ok (snd (step sh body fuel m o)) ->
  Inv (fst (step sh body fuel m o)) /\ nonneg (snd (step sh body fuel m o)).
Proof.
  intros HI. destruct o; cbn [step].
  - intros Hok. split; [apply engage_inv; assumption | apply silent_nonneg, engage_silent].
  - intros _. split; [apply done_inv | repeat constructor].
  - intros _. split; [apply done_inv | repeat constructor].
  - intros Hok. destruct (exec_inv sh body fuel m now Hwf HI Hok) as (H1 & _ & H3). auto.
  - intros _. split; [|constructor]. cbn. eapply Inv_frame; [exact HI|..]; reflexivity.
  - intros _. split; [|constructor]. cbn. eapply Inv_frame; [exact HI|..]; reflexivity.
  - destruct (auto_on m); [|intros _; split; [exact HI | constructor]].
    pose proof (engage_inv m None false HI) as He.
    pose proof (engage_silent m None false) as Hen.
    destruct (engage sh m None false) as [m1 e1]. cbn [fst snd] in *.
    pose proof (exec_inv sh body fuel m1 now Hwf) as Hx.
    destruct (exec sh body fuel m1 now) as [m2 e2]. cbn [fst snd] in *.
    intros Hok. apply ok_app in Hok. destruct Hok as [Hok1 Hok2].
    destruct (Hx (He Hok1) Hok2) as (H1 & _ & H3).
    split; [|apply nonneg_after_silent; assumption].
    eapply Inv_frame; [exact H1|..]; reflexivity.
  - intros _. split; [apply done_inv | repeat constructor].
Qed.

(* what every allowed operation preserves inside the contract holds over whole histories *)
Lemma run_closure (I : sm -> Prop) (P : event -> Prop) (allowed : op -> bool) fuel :
  (forall m o, allowed o = true -> I m -> ok (snd (step sh body fuel m o)) ->
     I (fst (step sh body fuel m o)) /\ Forall P (snd (step sh body fuel m o))) ->
  forall h m, forallb allowed h = true -> I m -> ok (trace_of (snd (run sh body fuel m h))) ->
    I (fst (run sh body fuel m h)) /\ Forall P (trace_of (snd (run sh body fuel m h))).
Proof.
  intros Hstep. induction h as [|o r IH]; intros m Hp HI.
  - intros _. split; [exact HI | constructor].
  - cbn [forallb] in Hp. apply andb_true_iff in Hp. destruct Hp as [Ho Hr].
    unfold trace_of. rewrite run_cons_fst, run_cons_snd. intros Hok.
    apply ok_app in Hok. destruct Hok as [Hok1 Hok2].
    destruct (Hstep m o Ho HI Hok1) as [HI1 Hn1]. destruct (IH _ Hr HI1 Hok2) as [HI2 Hn2].
    split; [exact HI2 | apply Forall_app; split; assumption].
Qed.

(* every reachable state of every history inside the contract satisfies Inv,
   and tm / state_tm are never negative *)
Theorem run_inv fuel h m : Inv m -> ok (trace_of (snd (run sh body fuel m h))) ->
  Inv (fst (run sh body fuel m h)) /\ nonneg (trace_of (snd (run sh body fuel m h))).
Proof.
  apply (run_closure Inv nonneg_ev (fun _ => true)).
  - intros m' o _. apply step_inv.
  - induction h; auto.
Qed.

(* ------------------------------------------------------------------ *)
(* stopping always goes through done()                                 *)

(* is_executing does not fall without a done(): either done() was invoked among [ev], or a machine that was
   executing still is *)
Definition drop_claim (m m' : sm) (ev : list event) : Prop :=
  In EvDone ev \/ (engaged m = true -> engaged m' = true).

Lemma drop_refl m m' : engaged m' = engaged m -> drop_claim m m' [].
Proof. intros H. right. congruence. Qed.

Lemma expire_drop m now : drop_claim m (s_m (expire sh m now)) (s_ev (expire sh m now)).
Proof. unfold drop_claim. destruct (expire_spec sh m now); cbn; auto. Qed.

Lemma select_drop x : drop_claim (s_m x) (s_m (select sh x)) (s_ev (select sh x)).
Proof.
  unfold select, fallback, stop_if_engaged, drop_claim.
  repeat break_match; cbn; rewrite ?deactivate_m, ?deactivate_ev, ?in_app_iff; cbn; auto.
Qed.

Lemma selected_drop m now : drop_claim m (s_m (selected sh m now)) (s_ev (selected sh m now)).
Proof.
  unfold selected. set (m0 := latch (m <| clk := now |>) now).
  destruct (select_ev sh (expire sh m0 now)) as (t & Ht & _).
  destruct (expire_drop m0 now) as [H|H]; [left; rewrite Ht, in_app_iff; auto|].
  destruct (select_drop (expire sh m0 now)) as [H'|H']; [left; exact H' | right].
  intros He. apply H', H. unfold m0. rewrite latch_engaged. cbn. rewrite He. reflexivity.
Qed.

Section Step.
Variable nested : sm -> Z -> sm * list event.
Hypothesis nested_drop : forall m now, drop_claim m (fst (nested m now)) (snd (nested m now)).

Lemma run_actions_drop acts m m' e : actions_out sh nested acts m m' e -> drop_claim m m' e.
Proof.
  induction 1 as [m|a r m _|n r m m' e _ _ IH|r m m' e _ IH|n now' r m m' e _ _ IH]; unfold drop_claim in *.
  - (* no action *) right. auto.
  - (* unknown state *) right. auto.
  - (* next_state keeps is_executing *)
    rewrite in_done_after_off. destruct IH as [H|H]; [left; right; exact H | right; exact H].
  - (* done *) left. apply in_or_app. right. left. reflexivity.
  - (* next_state_now: a done() in the nested iteration or in the rest, or neither lowers is_executing *)
    rewrite in_done_after_off. destruct (nested_drop (next_state m n) now') as [Hn|Hn].
    + left. right. right. apply in_or_app. left. exact Hn.
    + destruct IH as [H|H].
      * left. right. right. apply in_or_app. right. exact H.
      * right. rewrite restore_engaged in H. intros He. apply H, Hn, He.
Qed.

Lemma exec_step_drop m now :
  drop_claim m (fst (exec_step sh body nested m now)) (snd (exec_step sh body nested m now)).
Proof.
  pose proof (selected_drop m now) as Hx.
  pose proof (exec_step_spec sh body nested m now) as Hspec. revert Hx Hspec.
  generalize (selected sh m now). intros x Hx Hspec.
  destruct Hspec as [_|_ _ _|_ _ _|s m1 init bk m2 e _ _ Hbk tm stm Hrun].
  - right. auto.
  - destruct Hx as [H|H]; [left; rewrite in_app_iff; auto | right; exact H].
  - left. rewrite !in_app_iff. cbn. auto.
  - apply run_actions_drop in Hrun. pose proof (enter_bk_engaged sh _ _ _ _ _ _ Hbk) as Hfe.
    destruct Hx as [H|H]; [left; rewrite !in_app_iff; auto|].
    destruct Hrun as [H'|H']; [left; rewrite !in_app_iff; cbn; auto 6 | right].
    intros He. apply H'. cbn. rewrite Hfe. apply H, He.
Qed.
End Step.

Lemma exec_drop fuel : forall m now,
  drop_claim m (fst (exec sh body fuel m now)) (snd (exec sh body fuel m now)).
Proof.
  induction fuel as [|f IH]; intros m now; cbn [exec].
  - right. auto.
  - apply exec_step_drop. exact IH.
Qed.

(* whichever operation makes is_executing go from True to False, done() was invoked *)
Theorem stop_calls_done fuel m o :
  engaged m = true -> engaged (fst (step sh body fuel m o)) = false ->
  In EvDone (snd (step sh body fuel m o)).
Proof.
  intros He Hf. destruct o; cbn [step] in *.
  - rewrite engage_engaged in Hf. congruence.
  - left. reflexivity.
  - left. reflexivity.
  - destruct (exec_drop fuel m now) as [H|H]; [exact H | specialize (H He); congruence].
  - cbn in Hf. congruence.
  - cbn in Hf. congruence.
  - destruct (auto_on m); [|cbn in Hf; congruence].
    assert (He1 : engaged (fst (engage sh m None false)) = true) by (rewrite engage_engaged; exact He).
    destruct (engage sh m None false) as [m1 e1]. cbn [fst] in He1.
    pose proof (exec_drop fuel m1 now) as Hd.
    destruct (exec sh body fuel m1 now) as [m2 e2]. cbn [fst snd] in *.
    rewrite in_app_iff. right. cbn in Hf. destruct Hd as [H|H]; [exact H | specialize (H He1); congruence].
  - left. reflexivity.
Qed.

(* ------------------------------------------------------------------ *)
(* a stopped machine                                                   *)

(* Off and unrequested: whatever the state functions do (no contract), the machine is
   still so at the end of the iteration.  is_executing is raised only by the latch,
   which needs the request, and by the restart of a requested machine. *)
Definition Off (m : sm) : Prop := engaged m = false /\ should m = false.

(* a stopped machine between operations: [Inv m /\ Off m], written out *)
Definition Idle (m : sm) : Prop := Inv m /\ engaged m = false /\ should m = false.

Lemma Idle_iff m : Idle m <-> Inv m /\ Off m.
Proof. reflexivity. Qed.

Lemma Off_done m : Off m -> Off (done sh m).
Proof. intros [_ Hs]. split; [apply done_engaged | apply done_should_le, Hs]. Qed.

Lemma select_engaged_le x : engaged (s_m (select sh x)) = true -> engaged (s_m x) = true.
Proof.
  unfold select. rewrite fallback_engaged. unfold stop_if_engaged.
  repeat break_match; cbn; rewrite ?deactivate_m, ?done_engaged; auto; discriminate.
Qed.

Lemma selected_off m now : Off m -> Off (s_m (selected sh m now)).
Proof.
  intros [He Hs]. split; [|apply selected_unrequested, Hs].
  unfold selected. destruct (engaged (s_m (select sh _))) eqn:E; [|reflexivity].
  apply select_engaged_le in E. revert E.
  replace (latch (m <| clk := now |>) now) with (m <| clk := now |>)
    by (unfold latch; cbn; rewrite He, Hs; reflexivity).
  destruct (expire_spec sh (m <| clk := now |>) now) as [| |s dc _ _ _ _ Hd| |]; cbn; try congruence.
  - rewrite done_should_le in Hd by exact Hs. discriminate.
  - rewrite done_engaged. auto.
Qed.

Section StepOff.
Variable nested : sm -> Z -> sm * list event.
Hypothesis nested_off : forall m now, Off m -> Off (fst (nested m now)).

Lemma run_actions_off acts m m' e : actions_out sh nested acts m m' e -> Off m -> Off m'.
Proof.
  induction 1 as [m|a r m _|n r m m' e _ _ IH|r m m' e _ IH|n now' r m m' e _ _ IH]; intros HZ; auto.
  - apply IH, Off_done, HZ.
  - apply IH. pose proof (nested_off (next_state m n) now' HZ) as H.
    unfold restore. rewrite (proj1 H). exact H.
Qed.

Lemma exec_step_off m now : Off m -> Off (fst (exec_step sh body nested m now)).
Proof.
  intros HZ. pose proof (selected_off m now HZ) as [He Hs].
  pose proof (exec_step_spec sh body nested m now) as Hspec. revert He Hs Hspec.
  generalize (selected sh m now). intros x He Hs Hspec.
  destruct Hspec as [_|_ _ _|_ _ _|s m1 init bk m2 e _ _ Hbk tm stm Hrun].
  - exact HZ.
  - split; [exact He | reflexivity].
  - split; [apply done_engaged | reflexivity].
  - pose proof (enter_bk_should sh _ _ _ _ _ _ Hbk) as Hfs. pose proof (enter_bk_engaged sh _ _ _ _ _ _ Hbk) as Hfe.
    destruct (run_actions_off _ _ _ _ Hrun) as [H _]; [split; cbn; congruence|].
    split; [exact H | reflexivity].
Qed.
End StepOff.

Lemma exec_off fuel : forall m now, Off m -> Off (fst (exec sh body fuel m now)).
Proof.
  induction fuel as [|f IH]; intros m now HZ; cbn [exec]; [exact HZ | apply exec_step_off; auto].
Qed.

(* inside the contract a machine that is off can take no action at all *)
Lemma run_actions_idle nested acts m m' e : actions_out sh nested acts m m' e ->
  engaged m = false -> ok e -> m' = m /\ e = [].
Proof.
  intros H He Hok.
  destruct H as [m| |n r m m' e _ _|r m m' e _|n now' r m m' e _ _]; [auto|exfalso..];
    [eapply not_ok_err, Hok | apply ok_app in Hok; destruct Hok as [Hi _]; apply off_idle_ok in Hi; congruence..].
Qed.

Definition default_call_ev (e : event) : Prop :=
  match e with EvCall s _ _ _ eng => is_default sh s = true /\ eng = false | _ => True end.

Lemma silent_default_calls t : silent t -> Forall default_call_ev t.
Proof. apply Forall_of_silent; intros; exact I. Qed.

(* all it runs is its default state *)
Lemma exec_step_idle_calls nested m now : Idle m -> ok (snd (exec_step sh body nested m now)) ->
  Forall default_call_ev (snd (exec_step sh body nested m now)).
Proof.
  intros (HI & HZ)%Idle_iff. pose proof (selected_off m now HZ) as [He _].
  pose proof (selected_post sh m now Hwf HI) as HP. pose proof (selected_silent sh m now) as Hx.
  pose proof (exec_step_spec sh body nested m now) as Hspec. revert He HP Hx Hspec.
  generalize (selected sh m now). intros x He HP Hx Hspec.
  destruct Hspec as [_|_ _ _|_ _ _|s m1 init bk m2 e _ Hst Hbk tm stm Hrun]; intros Hok.
  - apply silent_default_calls, back_silent.
  - apply silent_default_calls, silent_app; [apply back_silent | exact Hx].
  - apply silent_default_calls. repeat apply silent_app;
      [apply back_silent | exact Hx | repeat constructor].
  - rewrite !ok_app, ok_cons in Hok. destruct Hok as (Hback & Hokx & _ & _ & Hok).
    destruct (HP Hback Hokx) as [(Hc & _) HQ]. pose proof (Q_cur sh _ HQ) as Hds.
    rewrite <- Hc, Hst, He in Hds.
    pose proof (enter_bk_engaged sh _ _ _ _ _ _ Hbk) as Hfe.
    destruct (run_actions_idle _ _ _ _ _ Hrun) as [_ ->]; [cbn; congruence | exact Hok|].
    apply Forall_app; split; [apply silent_default_calls, back_silent|].
    apply Forall_app; split; [apply silent_default_calls, Hx|].
    apply Forall_app; split; [eapply silent_default_calls, enter_bk_silent, Hbk|].
    constructor; [|constructor]. cbn. split; [exact Hds | congruence].
Qed.

Theorem exec_idle fuel m now : Idle m -> ok (snd (exec sh body fuel m now)) ->
  Idle (fst (exec sh body fuel m now)) /\ Forall default_call_ev (snd (exec sh body fuel m now)).
Proof.
  intros HI Hok. split.
  - apply Idle_iff in HI. destruct HI as (HI & HZ).
    apply Idle_iff. split; [apply (exec_inv sh body fuel); assumption | apply exec_off, HZ].
  - destruct fuel; [destruct (not_ok_err _ Hok) | apply exec_step_idle_calls; assumption].
Qed.

(* operations other than engage() (and the autonomous wrappers) *)
Definition no_engage_op (o : op) : bool :=
  match o with Done | OnDisable | Execute _ | SetDuration _ _ => true | _ => false end.

(* ... until engage() is called again: for EVERY continuation without engage() *)
Theorem idle_until_engage fuel h m : Idle m -> forallb no_engage_op h = true ->
  ok (trace_of (snd (run sh body fuel m h))) ->
  Idle (fst (run sh body fuel m h)) /\
  Forall default_call_ev (trace_of (snd (run sh body fuel m h))).
Proof.
  intros HI Hp. revert h m Hp HI. apply run_closure.
  intros m o Ho HIdle. pose proof HIdle as (HI & HZ)%Idle_iff.
  destruct o; try discriminate; cbn [step fst snd].
  - intros _. split; [|repeat constructor]. apply Idle_iff. split; [apply done_inv | apply Off_done, HZ].
  - intros _. split; [|repeat constructor]. apply Idle_iff. split; [apply done_inv | apply Off_done, HZ].
  - apply exec_idle, HIdle.
  - intros _. split; [|constructor]. apply Idle_iff.
    split; [eapply Inv_frame; [exact HI|..]; reflexivity | exact HZ].
Qed.

End P.
