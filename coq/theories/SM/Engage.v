(* C01: regular states run only while engage() keeps being called;
   the request flag; exactly one state function per requested iteration. *)
From Coq Require Import ZArith List Bool Lia.
From RecordUpdate Require Import RecordSet.
Import ListNotations RecordSetNotations.
From RV Require Import SM.Model SM.Basics.
Open Scope Z_scope.

Section P.
Variable sh : shape.
Variable body : nat -> name -> Z -> Z -> bool -> list action.

(* ------------------------------------------------------------------ *)
(* A. without a request, no regular state function is called          *)

Definition quiet_ev (e : event) : Prop :=
  match e with EvCall s _ _ _ _ => is_regular sh s = false | _ => True end.
Definition quiet (t : list event) := Forall quiet_ev t.

Lemma quiet_app a b : quiet (a ++ b) <-> quiet a /\ quiet b.
Proof. apply Forall_app. Qed.
Lemma silent_quiet t : silent t -> quiet t.
Proof. apply Forall_of_silent; intros; exact I. Qed.
Lemma quiet_after_silent a b : silent a -> quiet b -> quiet (a ++ b).
Proof. intros Ha Hb. apply quiet_app. split; [apply silent_quiet, Ha | exact Hb]. Qed.

Lemma fallback_st_inv x s : s_st (fallback sh x) = Some s ->
  s_st x = Some s \/ (s_st x = None /\ sh_default sh = Some s).
Proof.
  unfold fallback. destruct (s_st x) as [s0|] eqn:Es.
  - rewrite Es. auto.
  - destruct (sh_default sh) as [d|]; [|rewrite Es; discriminate].
    destruct (is_some_eq (cur (s_m x)) d); cbn; intros [= <-]; auto.
Qed.

(* what is selected without the request is a must_finish state that was kept or
   the default state *)
Lemma select_st_quiet x s : should (s_m x) = false -> s_st (select sh x) = Some s ->
  is_regular sh s = false.
Proof.
  intros Hs H. unfold select in H. apply fallback_st_inv in H. unfold is_regular.
  destruct H as [H|[_ H]].
  - rewrite stop_st, deactivate_st in H. destruct (s_st x) as [s0|]; [|discriminate].
    rewrite Hs in H. cbn in H. destruct (is_must sh s0) eqn:E; [|discriminate].
    injection H as <-. rewrite E. apply andb_false_r.
  - apply is_default_iff in H. rewrite H. reflexivity.
Qed.

Lemma selected_unrequested m now : should m = false -> should (s_m (selected sh m now)) = false.
Proof.
  intros Hs. unfold selected. apply select_should_le, expire_should_le. rewrite latch_should. exact Hs.
Qed.

Lemma selected_quiet m now s : should m = false -> s_st (selected sh m now) = Some s ->
  is_regular sh s = false.
Proof.
  intros Hs. unfold selected. apply select_st_quiet, expire_should_le. rewrite latch_should. exact Hs.
Qed.

Section Step.
Variable nested : sm -> Z -> sm * list event.
Hypothesis nested_quiet : forall m now, should m = false -> quiet (snd (nested m now)).
Hypothesis nested_unrequested : forall m now, should m = false -> should (fst (nested m now)) = false.

Lemma run_actions_quiet acts m m' e : actions_out sh nested acts m m' e -> should m = false ->
  quiet e /\ should m' = false.
Proof.
  induction 1 as [m|a r m _|n r m m' e _ _ IH|r m m' e _ IH|n now' r m m' e _ _ IH]; intros Hs.
  - split; [constructor | exact Hs].
  - split; [repeat constructor | exact Hs].
  - destruct (IH Hs) as [Hq Hs']. split; [|exact Hs'].
    apply quiet_after_silent; [apply off_idle_silent|].
    apply quiet_after_silent; [apply off_default_silent|]. constructor; [exact I | exact Hq].
  - destruct (IH (done_should_le sh m Hs)) as [Hq Hs']. split; [|exact Hs'].
    apply quiet_after_silent; [apply off_idle_silent|]. constructor; [exact I | exact Hq].
  - destruct IH as [Hq Hs'].
    { unfold restore. destruct (engaged _); [exact Hs | apply nested_unrequested, Hs]. }
    split; [|exact Hs'].
    apply quiet_after_silent; [apply off_idle_silent|].
    apply quiet_after_silent; [apply off_default_silent|].
    constructor; [exact I|]. constructor; [exact I|].
    apply quiet_app; split; [apply nested_quiet, Hs | exact Hq].
Qed.

Lemma exec_step_quiet m now : should m = false ->
  quiet (snd (exec_step sh body nested m now)).
Proof.
  intros Hs. pose proof (selected_silent sh m now) as Hx. pose proof (selected_quiet m now) as Hq.
  pose proof (selected_unrequested m now Hs) as Hu.
  pose proof (exec_step_spec sh body nested m now) as Hspec. revert Hx Hq Hu Hspec.
  generalize (selected sh m now). intros x Hx Hq Hu Hspec.
  destruct Hspec as [_|_ _ _|_ _ _|s m1 init bk m2 e _ Hst Hbk tm stm Hrun];
    [apply silent_quiet, back_silent | apply quiet_after_silent; [apply back_silent|]..].
  - apply silent_quiet, Hx.
  - apply quiet_after_silent; [exact Hx | repeat constructor].
  - apply quiet_after_silent; [exact Hx|].
    apply quiet_after_silent; [eapply enter_bk_silent, Hbk|].
    constructor; [exact (Hq s Hs Hst)|].
    eapply run_actions_quiet; [exact Hrun|].
    exact (eq_trans (enter_bk_should sh _ _ _ _ _ _ Hbk) Hu).
Qed.
End Step.

Lemma exec_step_should nested m now :
  should (fst (exec_step sh body nested m now)) = false.
Proof.
  destruct (exec_step_spec sh body nested m now) as [Hsk| | |]; try reflexivity.
  cbn. unfold skips in Hsk. destruct (should m); [|reflexivity].
  rewrite andb_false_r in Hsk. discriminate.
Qed.

Theorem exec_quiet fuel : forall m now, should m = false -> quiet (snd (exec sh body fuel m now)).
Proof.
  induction fuel as [|f IH]; intros m now Hs; cbn [exec].
  - repeat constructor.
  - apply (exec_step_quiet (exec sh body f) IH); [|exact Hs].
    (* the nested iteration leaves the machine unrequested: out of fuel it returns the
       machine as it is, otherwise it is an iteration, and every iteration clears the flag *)
    intros m' now' Hs'. destruct f; [exact Hs' | apply exec_step_should].
Qed.

(* ------------------------------------------------------------------ *)
(* B. the request flag: true iff engage() since the previous iteration *)

Definition plain_op (o : op) : bool :=
  match o with Engage _ _ | Done | OnDisable | Execute _ | SetDuration _ _ => true | _ => false end.

(* the reference: engage() sets the request, an iteration consumes it *)
Fixpoint requested (h : list op) (b : bool) : bool :=
  match h with
  | [] => b
  | Engage _ _ :: r => requested r true
  | Execute _ :: r => requested r false
  | _ :: r => requested r b
  end.

Lemma engage_should m i f : should (fst (engage sh m i f)) = true.
Proof. unfold engage. repeat break_match; reflexivity. Qed.
Lemma engage_engaged m i f : engaged (fst (engage sh m i f)) = engaged m.
Proof. unfold engage. repeat break_match; reflexivity. Qed.

Theorem should_iff_engaged_since fuel h : forall m,
  sh_auto sh = false -> forallb plain_op h = true ->
  should (fst (run sh body (S fuel) m h)) = requested h (should m).
Proof.
  induction h as [|o r IH]; intros m Ha Hp; [reflexivity|].
  cbn [forallb] in Hp. apply andb_true_iff in Hp. destruct Hp as [Ho Hr].
  rewrite run_cons_fst, IH by assumption.
  destruct o; try discriminate; cbn [step requested fst]; f_equal.
  - apply engage_should.
  - apply done_should_plain, Ha.
  - apply done_should_plain, Ha.
  - apply exec_step_should.
Qed.

(* ------------------------------------------------------------------ *)
(* C. requested and not stopped: exactly one state function, plus one
      per next_state_now()                                             *)

Fixpoint ncalls (t : list event) : nat :=
  match t with
  | [] => O
  | EvCall _ _ _ _ _ :: r => S (ncalls r)
  | _ :: r => ncalls r
  end.
Fixpoint nnow (t : list event) : nat :=
  match t with
  | [] => O
  | EvNow :: r => S (nnow r)
  | _ :: r => nnow r
  end.
Lemma ncalls_app a b : ncalls (a ++ b) = (ncalls a + ncalls b)%nat.
Proof. induction a as [|[] a IH]; cbn; auto. Qed.
Lemma nnow_app a b : nnow (a ++ b) = (nnow a + nnow b)%nat.
Proof. induction a as [|[] a IH]; cbn; auto. Qed.

Lemma counts_after_silent a b k : silent a -> ncalls b = (k + nnow b)%nat ->
  ncalls (a ++ b) = (k + nnow (a ++ b))%nat.
Proof. induction 1 as [|[] a H _ IH]; cbn in *; auto; contradiction. Qed.

(* when requested, the selected state is the machine's state (never deactivated) *)
Lemma select_requested x : should (s_m x) = true -> s_st x <> None -> s_st (select sh x) = s_st x.
Proof.
  intros Hs Hn. unfold select.
  assert (H : s_st (stop_if_engaged sh (deactivate sh x)) = s_st x).
  { rewrite stop_st, deactivate_st. destruct (s_st x); [rewrite Hs; reflexivity | congruence]. }
  unfold fallback. rewrite H. destruct (s_st x); [exact H | congruence].
Qed.

Lemma expire_st_some m now : sh_auto sh = false -> should m = true -> cur m <> None ->
  ok (s_ev (expire sh m now)) -> s_st (expire sh m now) <> None.
Proof.
  intros Ha Hs Hc. destruct (expire_spec sh m now) as [| | |s dc _ _ _ _ Hd|]; cbn; try discriminate; auto.
  - rewrite done_should_plain in Hd by exact Ha. congruence.
  - intros Hok. exfalso. eapply not_ok_err, Hok.
Qed.

Lemma selected_some m now : sh_auto sh = false -> should m = true -> cur m <> None ->
  ok (s_ev (selected sh m now)) -> s_st (selected sh m now) <> None.
Proof.
  intros Ha Hs Hc. unfold selected. intros Hok. apply select_ok in Hok.
  set (m0 := latch (m <| clk := now |>) now) in *.
  assert (Hs0 : should m0 = true) by (unfold m0; rewrite latch_should; exact Hs).
  assert (Hc0 : cur m0 <> None) by (unfold m0; rewrite latch_cur; exact Hc).
  pose proof (expire_st_some m0 now Ha Hs0 Hc0 Hok) as Hne.
  rewrite select_requested; [exact Hne | rewrite expire_should_plain; assumption | exact Hne].
Qed.

Section Step2.
Variable nested : sm -> Z -> sm * list event.
Hypothesis nested_one : forall m now, should m = true -> cur m <> None ->
  ok (snd (nested m now)) -> ncalls (snd (nested m now)) = S (nnow (snd (nested m now))).

(* in the body every next_state_now() accounts for the one call of its nested iteration.
   [engaged m = true -> should m = true] is what holds of the machine throughout the body of a
   requested iteration whatever [sh_auto] is: transitions keep both flags, and once done() has
   withdrawn the request the machine is off, so a next_state_now() that follows is outside the
   contract (its [off_if_idle] is in [e]) *)
Lemma run_actions_one acts m m' e : actions_out sh nested acts m m' e ->
  (engaged m = true -> should m = true) -> ok e -> ncalls e = nnow e.
Proof.
  induction 1 as [m|a r m _|n r m m' e _ _ IH|r m m' e _ IH|n now' r m m' e _ _ IH]; intros HP Hok;
    try reflexivity; rewrite !ok_app, ?ok_cons, ?ok_app in Hok.
  - destruct Hok as (_ & _ & _ & Hok).
    apply (counts_after_silent _ _ 0); [apply off_idle_silent|].
    apply (counts_after_silent _ _ 0); [apply off_default_silent|].
    apply IH; assumption.
  - destruct Hok as (_ & _ & Hok).
    apply (counts_after_silent _ _ 0); [apply off_idle_silent|].
    apply IH; [rewrite done_engaged; discriminate | exact Hok].
  - destruct Hok as (Hidle & _ & _ & _ & Hok1 & Hok2). apply off_idle_ok in Hidle.
    apply (counts_after_silent _ _ 0); [apply off_idle_silent|].
    apply (counts_after_silent _ _ 0); [apply off_default_silent|].
    cbn. rewrite ncalls_app, nnow_app.
    rewrite nested_one; [| apply HP, Hidle | discriminate | exact Hok1].
    rewrite IH; [lia | | exact Hok2].
    unfold restore. destruct (engaged (fst _)) eqn:E1; cbn; [intros _; apply HP, Hidle | congruence].
Qed.

Lemma exec_step_one m now : sh_auto sh = false -> should m = true -> cur m <> None ->
  ok (snd (exec_step sh body nested m now)) ->
  ncalls (snd (exec_step sh body nested m now)) = S (nnow (snd (exec_step sh body nested m now))).
Proof.
  intros Ha Hs Hc. pose proof (selected_some m now Ha Hs Hc) as Hsome.
  pose proof (selected_silent sh m now) as Hx.
  assert (Hsx : should (s_m (selected sh m now)) = true)
    by (unfold selected; rewrite select_should_plain, expire_should_plain, latch_should by exact Ha; exact Hs).
  pose proof (exec_step_spec sh body nested m now) as Hspec. revert Hsome Hx Hsx Hspec.
  generalize (selected sh m now). intros x Hsome Hx Hsx Hspec.
  destruct Hspec as [Hsk|_ Hst _|_ Hst _|s m1 init bk m2 e _ Hst Hbk tm stm Hrun]; intros Hok.
  - unfold skips in Hsk. rewrite Hs, andb_false_r in Hsk. discriminate.
  - (* the state is never dropped while requested *)
    apply ok_app in Hok. destruct Hok as [_ Hok].
    destruct (Hsome Hok Hst).
  - rewrite !ok_app in Hok. destruct Hok as (_ & Hok & _).
    destruct (Hsome Hok Hst).
  - rewrite !ok_app, ok_cons in Hok. destruct Hok as (_ & _ & _ & _ & Hok).
    apply (counts_after_silent _ _ 1); [apply back_silent|].
    apply (counts_after_silent _ _ 1); [exact Hx|].
    apply (counts_after_silent _ _ 1); [eapply enter_bk_silent, Hbk|].
    cbn. f_equal. eapply run_actions_one; [exact Hrun | | exact Hok].
    intros _. exact (eq_trans (enter_bk_should sh _ _ _ _ _ _ Hbk) Hsx).
Qed.
End Step2.

Theorem exec_one fuel : forall m now, sh_auto sh = false -> should m = true -> cur m <> None ->
  ok (snd (exec sh body fuel m now)) ->
  ncalls (snd (exec sh body fuel m now)) = S (nnow (snd (exec sh body fuel m now))).
Proof.
  induction fuel as [|f IH]; intros m now Ha Hs Hc; cbn [exec].
  - cbn. intros H. exfalso. eapply not_ok_err, H.
  - apply exec_step_one; auto.
Qed.

End P.
