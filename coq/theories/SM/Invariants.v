(* The invariant of a StateMachine used inside the contract K, its
   preservation by execute() (any nesting of next_state_now), and
   non-negativity of tm / state_tm. *)
From Coq Require Import ZArith List Bool Lia.
From RecordUpdate Require Import RecordSet.
Import ListNotations RecordSetNotations.
From RV Require Import SM.Model SM.Basics SM.Engage.
Open Scope Z_scope.

Section P.
Variable sh : shape.
Variable body : nat -> name -> Z -> Z -> bool -> list action.

(* the default state is entered by falling back to it, never by a transition *)
Definition wf_shape : Prop :=
  is_state sh (sh_first sh) = true /\ is_default sh (sh_first sh) = false /\
  (forall s d n, lookup sh s = Some d -> d_next d = Some n -> is_default sh n = false) /\
  (forall d dc, sh_default sh = Some d -> lookup sh d = Some dc -> d_timed dc = false).

Definition cur_idle (m : sm) : Prop :=
  cur m = None \/ (exists d, sh_default sh = Some d /\ cur m = Some d).
Definition running (m : sm) : Prop :=
  exists s, cur m = Some s /\ is_default sh s = false /\ nt_cur m = Some s.
Definition stopped (m : sm) : Prop := cur_idle m /\ nt_cur m = None.
Definition timing (m : sm) : Prop :=
  (engaged m = true -> start m <= clk m) /\
  (forall s, cur m = Some s -> ran (sdat m s) = true -> st_start (sdat m s) <= clk m - start m).

(* inside a state function *)
Definition Q (m : sm) : Prop :=
  (engaged m = true -> running m) /\ (engaged m = false -> stopped m) /\ timing m.

(* between operations; the third clause is a machine that engage() has just set up and no iteration has run yet: its
   state is entered but has not run, and is not the default state *)
Definition Inv (m : sm) : Prop :=
  (engaged m = true -> running m) /\
  (engaged m = false -> should m = false -> stopped m) /\
  (engaged m = false -> should m = true ->
     nt_cur m = cur m /\ forall s, cur m = Some s -> ran (sdat m s) = false /\ is_default sh s = false) /\
  timing m.

Lemma Q_Inv m : Q m -> should m = false -> Inv m.
Proof.
  intros (Hr & Hs & Ht) Hf. split; [exact Hr|]. split; [intros He _; apply Hs, He|].
  split; [intros _ H; congruence | exact Ht].
Qed.
Lemma Q_Inv_running m : Q m -> engaged m = true -> Inv m.
Proof.
  intros (Hr & _ & Ht) He. split; [exact Hr|]. split; [intros H; congruence|].
  split; [intros H; congruence | exact Ht].
Qed.
Lemma Inv_Q_running m : Inv m -> engaged m = true -> Q m.
Proof. intros (Hr & _ & _ & Ht) He. split; [exact Hr|]. split; [intros H; congruence | exact Ht]. Qed.
Lemma Inv_Q m : Inv m -> should m = false -> Q m.
Proof.
  intros (Ha & Hb & Hc & Ht) Hs. unfold Q. split; [exact Ha|]. split; [|exact Ht].
  intros He. apply Hb; assumption.
Qed.
Lemma Q_start m : Q m -> engaged m = true -> start m <= clk m.
Proof. intros (_ & _ & H & _). exact H. Qed.

(* a machine that is off and at no state satisfies the invariant, requested or not *)
Lemma Inv_off m : engaged m = false -> cur m = None -> nt_cur m = None -> Inv m.
Proof.
  intros H1 H2 H3. unfold Inv, running, stopped, timing, cur_idle. rewrite H1, H2, H3.
  split; [intros H; discriminate|]. split; [intros _ _; auto|].
  split; [intros _ _; split; [reflexivity | intros s H; discriminate]|].
  split; [intros H; discriminate | intros s H; discriminate].
Qed.

Lemma Inv_init durs : Inv (init_sm durs).
Proof. apply Inv_off; reflexivity. Qed.

(* what is_executing and current_state show of a machine that satisfies it *)
Theorem running_status m : Inv m -> engaged m = true ->
  exists s, cur m = Some s /\ nt_cur m = Some s /\ is_default sh s = false.
Proof. intros (Ha & _) He. destruct (Ha He) as (s & H1 & H2 & H3). eauto. Qed.

Theorem stopped_status m : Inv m -> engaged m = false -> should m = false ->
  nt_cur m = None /\ (cur m = None \/ at_default sh m = true).
Proof.
  intros (_ & Hb & _) He Hs. destruct (Hb He Hs) as ([Hn|(d & Hd & Hc)] & Hnt); split; auto.
  right. unfold at_default. rewrite Hc, Hd. apply Nat.eqb_refl.
Qed.

Definition nonneg_ev (e : event) : Prop :=
  match e with EvCall _ tm stm _ eng => 0 <= stm /\ (eng = true -> 0 <= tm) | _ => True end.
Definition nonneg (t : list event) : Prop := Forall nonneg_ev t.
Lemma nonneg_app a b : nonneg (a ++ b) <-> nonneg a /\ nonneg b.
Proof. apply Forall_app. Qed.
Lemma silent_nonneg t : silent t -> nonneg t.
Proof. apply Forall_of_silent; intros; exact I. Qed.
Lemma nonneg_after_silent a b : silent a -> nonneg b -> nonneg (a ++ b).
Proof. intros Ha Hb. apply nonneg_app. split; [apply silent_nonneg, Ha | exact Hb]. Qed.

Lemma is_default_some d s : sh_default sh = Some d -> is_default sh s = true -> s = d.
Proof. unfold is_default. intros ->. cbn. intros H. apply Nat.eqb_eq in H. auto. Qed.

(* Q, except that an executing machine may be at no state (engage(); done(); execute()):
   what holds once the clock origin is latched, while the expiry is looked at *)
Definition latched (m : sm) : Prop :=
  (engaged m = true -> nt_cur m = cur m /\ forall s, cur m = Some s -> is_default sh s = false) /\
  (engaged m = false -> stopped m) /\ timing m.

Lemma Q_latched m : Q m -> latched m.
Proof.
  intros (Hr & Hs & Ht). split; [|split; assumption].
  intros He. destruct (Hr He) as (s & Hc & Hd & Hn). split; [congruence|]. intros s' Hc'. congruence.
Qed.
Lemma latched_Q m : latched m -> (engaged m = true -> cur m <> None) -> Q m.
Proof.
  intros (Ha & Hs & Ht) Hc. split; [|split; assumption].
  intros He. destruct (Ha He) as [Hn Hd]. destruct (cur m) as [s|] eqn:E; [|destruct (Hc He eq_refl)].
  exists s. auto.
Qed.

(* a machine that is not executing runs nothing but its default state *)
Lemma Q_cur m : Q m ->
  match cur m with Some s => is_default sh s = negb (engaged m) | None => engaged m = false end.
Proof.
  intros (Hr & Hs & _). destruct (engaged m) eqn:E.
  - destruct (Hr eq_refl) as (s & -> & Hd & _). exact Hd.
  - destruct (Hs eq_refl) as ([->|(d & Hd & ->)] & _); [reflexivity | apply is_default_iff, Hd].
Qed.

Lemma Q_next_state m n : start m <= clk m -> engaged m = true -> is_default sh n = false -> Q (next_state m n).
Proof.
  intros Ht He Hd. unfold Q, running, stopped, timing.
  rewrite next_state_engaged, next_state_cur, next_state_nt, next_state_start, next_state_clk.
  split; [intros _; exists n; auto|]. split; [intros H; congruence|].
  split; [intros _; exact Ht|]. intros s [= <-]. rewrite next_state_ran. discriminate.
Qed.

Lemma Q_done m : Q (done sh m).
Proof.
  unfold Q, running, stopped, timing, cur_idle. rewrite done_engaged, done_cur, done_nt.
  split; [intros H; discriminate|]. split; [intros _; auto|].
  split; [intros H; discriminate | intros s H; discriminate].
Qed.

Lemma Inv_later m now : Inv m -> clk m <= now -> Inv (m <| clk := now |>).
Proof.
  intros (Ha & Hb & Hc & Ht1 & Ht2) Hle. unfold Inv, timing. cbn.
  split; [exact Ha|]. split; [exact Hb|]. split; [exact Hc|].
  split; [intros He; specialize (Ht1 He); lia | intros s Hs Hr; specialize (Ht2 s Hs Hr); lia].
Qed.

(* the latch raises is_executing only on a machine that engage() has just set up: its
   state has not run, so no entry instant is measured from the old clock origin *)
Lemma latch_latched m : Inv m -> latched (latch m (clk m)).
Proof.
  intros HI. unfold latch. destruct (engaged m) eqn:Ee; cbn [negb andb].
  - apply Q_latched, Inv_Q_running; assumption.
  - destruct (should m) eqn:Es; [|apply Q_latched, Inv_Q; assumption].
    destruct HI as (_ & _ & Hc & _). destruct (Hc Ee Es) as (Hn & Hf).
    unfold latched, timing. cbn.
    split; [intros _; split; [exact Hn | intros s H; apply Hf, H]|]. split; [intros H; discriminate|].
    split; [intros _; lia | intros s H Hr; destruct (Hf s H); congruence].
Qed.

(* ------------------------------------------------------------------ *)
(* the local variables of execute() between its phases                 *)

(* the local [state] is the machine's state, [tm] is the clock reading in the machine's
   frame, and a state entered now is entered no later than that *)
Definition coherent (now : Z) (x : sel) : Prop :=
  let m := s_m x in
  s_st x = cur m /\ clk m = now /\ s_tm x = now - start m /\ s_nss x <= s_tm x.

(* after the expiry phase; a machine that has just started over (done() was called, yet it
   is executing) is requested, so its state is not going to be deactivated *)
Definition post_expire (now : Z) (x : sel) : Prop :=
  coherent now x /\ latched (s_m x) /\ (engaged (s_m x) = true -> s_done x = true -> kept sh x).

(* after the selection phases *)
Definition post_select (now : Z) (x : sel) : Prop := coherent now x /\ Q (s_m x).

(* a timed state expires only in a machine that is executing: a stopped machine is at
   no state or at the default state, which is untimed *)
Lemma expired_engaged m now s dc : wf_shape -> latched m -> expired m now s ->
  lookup sh s = Some dc -> d_timed dc = true -> engaged m = true.
Proof.
  intros (_ & _ & _ & Hw4) (_ & Hs & _) (Hc & _) Hl Ht. destruct (engaged m); [reflexivity|].
  destruct (Hs eq_refl) as ([Hn|(d & Hd & Hcd)] & _); [congruence|].
  rewrite Hcd in Hc. injection Hc as ->. rewrite (Hw4 _ _ Hd Hl) in Ht. discriminate.
Qed.

Lemma expire_post m now : wf_shape -> latched m -> clk m = now -> ok (s_ev (expire sh m now)) ->
  post_expire now (expire sh m now).
Proof.
  intros Hwf HL Hk. pose proof (fun s dc => expired_engaged m now s dc Hwf HL) as Heng.
  destruct Hwf as (_ & Hw2 & Hw3 & _). pose proof HL as (_ & _ & Ht1 & _).
  destruct (expire_spec sh m now)
    as [_|s dc n He Hl Ht Hn _|s dc He Hl Ht _ Hsd|s dc He Hl Ht _ _|s nss _]; intros Hok.
  - (* kept: the machine is as it was, the state is entered now at the latest *)
    split; [|split; [exact HL | intros _ H; discriminate]].
    split; [reflexivity|]. split; [exact Hk|]. split; [reflexivity | apply Z.le_refl].
  - (* next: entered at the expiry instant, which is past *)
    pose proof (Heng s dc He Hl Ht) as Ee. destruct He as (_ & _ & Hx).
    split; [|split].
    + split; [reflexivity|]. split; [exact Hk|]. split; [reflexivity | exact (Z.lt_le_incl _ _ Hx)].
    + apply Q_latched, Q_next_state; [apply Ht1, Ee | exact Ee | exact (Hw3 s dc n Hl Hn)].
    + intros _ H. discriminate.
  - (* cycle: the first state starts over in the clock frame of the expiry instant *)
    destruct He as (_ & _ & Hx).
    split; [|split].
    + split; [reflexivity|]. split; [exact (eq_trans (done_clk sh m) Hk)|].
      split.
      * cbn -[Z.sub Z.add]. rewrite done_start. lia.
      * cbn [s_nss s_tm]. lia.
    + apply Q_latched, Q_next_state; [|reflexivity | exact Hw2].
      cbn -[Z.add]. rewrite done_clk, done_start. lia.
    + intros _ _. exists (sh_first sh). split; [reflexivity|]. cbn. rewrite Hsd. reflexivity.
  - (* finish: done(), the clock frame stays *)
    destruct He as (_ & _ & Hx).
    split; [|split].
    + split; [symmetry; apply done_cur|]. split; [exact (eq_trans (done_clk sh m) Hk)|].
      split; [|exact (Z.lt_le_incl _ _ Hx)]. cbn [s_tm s_m]. rewrite done_start. reflexivity.
    + apply Q_latched, Q_done.
    + cbn [s_m]. rewrite done_engaged. intros H. discriminate.
  - (* error *) destruct (not_ok_err _ Hok).
Qed.

(* the fall-back on a machine that has stopped *)
Lemma fallback_post y : s_st y = None -> engaged (s_m y) = false -> Q (s_m y) ->
  s_st (fallback sh y) = cur (s_m (fallback sh y)) /\ Q (s_m (fallback sh y)).
Proof.
  intros Hst He HQ. pose proof HQ as (_ & Hs & _). destruct (Hs He) as (Hci & Hn).
  unfold fallback. rewrite Hst. destruct (sh_default sh) as [d|] eqn:Hd.
  - destruct (is_some_eq (cur (s_m y)) d) eqn:E; cbn.
    + split; [symmetry; apply is_some_eq_true, E | exact HQ].
    + split; [reflexivity|]. unfold Q, running, stopped, cur_idle, timing. cbn. rewrite He.
      split; [intros H; discriminate|]. split; [intros _; eauto|].
      split; [intros H; discriminate|]. intros s [= <-]. unfold upd. rewrite Nat.eqb_refl. discriminate.
  - split; [|exact HQ]. destruct Hci as [Hc|(d & Hd' & _)]; congruence.
Qed.

Lemma select_post now x : post_expire now x -> post_select now (select sh x).
Proof.
  intros ((Hst & Hk & Htm & Hnss) & HL & Hdone).
  destruct (kept_or_none sh x) as [HK|HD].
  - rewrite (select_kept sh x HK). split; [repeat split; assumption|].
    apply latched_Q; [exact HL|]. destruct HK as (s & Hs & _). congruence.
  - (* no state is left to run: a machine that is executing stops *)
    set (y := stop_if_engaged sh (deactivate sh x)).
    assert (Hy : engaged (s_m y) = false /\ Q (s_m y) /\ clk (s_m y) = now /\ start (s_m y) = start (s_m x)).
    { unfold y, stop_if_engaged. rewrite HD, deactivate_m, deactivate_done.
      destruct (engaged (s_m x)) eqn:Ee; [destruct (s_done x) eqn:Ed|]; cbn.
      - exfalso. pose proof (Hdone eq_refl eq_refl) as HK. rewrite (deactivate_kept sh x HK) in HD.
        destruct HK as (s & Hs & _). congruence.
      - rewrite done_engaged, done_clk, done_start. auto using Q_done.
      - rewrite deactivate_m. split; [exact Ee|]. split; [apply latched_Q; [exact HL | congruence] | auto]. }
    destruct Hy as (Hy1 & Hy2 & Hy3 & Hy4).
    destruct (fallback_post y) as [Hc HQ]; [unfold y; rewrite stop_st; exact HD | assumption..|].
    split; [|exact HQ]. unfold coherent. rewrite select_tm, select_nss.
    change (select sh x) with (fallback sh y). rewrite fallback_clk, fallback_start, Hy4. auto.
Qed.

Lemma selected_post m now : wf_shape -> Inv m -> ok (back m now) -> ok (s_ev (selected sh m now)) ->
  post_select now (selected sh m now).
Proof.
  intros Hwf HI Hb. unfold selected. intros Hx.
  apply select_post, expire_post; [exact Hwf | | apply latch_clk | apply (select_ok sh), Hx].
  exact (latch_latched (m <| clk := now |>) (Inv_later m now HI (back_ok _ _ Hb))).
Qed.

(* ------------------------------------------------------------------ *)
(* the body of a state function                                        *)
Section Step.
Variable nested : sm -> Z -> sm * list event.
Hypothesis nested_inv : forall m now, Inv m -> ok (snd (nested m now)) ->
  Inv (fst (nested m now)) /\ should (fst (nested m now)) = false /\ nonneg (snd (nested m now)).

(* Q does not look at the request *)
Lemma Q_restore m1 sv : Inv m1 -> should m1 = false -> Q (restore m1 sv).
Proof. intros HI Hs. unfold restore. destruct (engaged m1); exact (Inv_Q m1 HI Hs). Qed.

Lemma run_actions_Q acts m m' e : actions_out sh nested acts m m' e -> Q m -> ok e -> Q m' /\ nonneg e.
Proof.
  induction 1 as [m|a r m _|n r m m' e _ _ IH|r m m' e _ IH|n now' r m m' e _ _ IH]; intros HQ Hok.
  - split; [exact HQ | constructor].
  - exfalso. eapply not_ok_err, Hok.
  - rewrite !ok_app, ok_cons in Hok. destruct Hok as (Hi & Hd & _ & Hok). apply off_idle_ok in Hi.
    destruct (IH (Q_next_state m n (Q_start m HQ Hi) Hi (off_default_ok sh n Hd)) Hok) as [HQ' Hnn].
    split; [exact HQ'|].
    apply nonneg_after_silent; [apply off_idle_silent|].
    apply nonneg_after_silent; [apply off_default_silent|]. constructor; [exact I | exact Hnn].
  - rewrite ok_app, ok_cons in Hok. destruct Hok as (_ & _ & Hok).
    destruct (IH (Q_done m) Hok) as [HQ' Hnn]. split; [exact HQ'|].
    apply nonneg_after_silent; [apply off_idle_silent|]. constructor; [exact I | exact Hnn].
  - rewrite !ok_app, !ok_cons, ok_app in Hok. destruct Hok as (Hi & Hd & _ & _ & Hok1 & Hok2).
    apply off_idle_ok in Hi.
    pose proof (Q_next_state m n (Q_start m HQ Hi) Hi (off_default_ok sh n Hd)) as HQn.
    destruct (nested_inv _ now' (Q_Inv_running _ HQn Hi) Hok1) as (HI1 & Hs1 & Hnn1).
    destruct (IH (Q_restore _ _ HI1 Hs1) Hok2) as [HQ' Hnn2]. split; [exact HQ'|].
    apply nonneg_after_silent; [apply off_idle_silent|].
    apply nonneg_after_silent; [apply off_default_silent|].
    constructor; [exact I|]. constructor; [exact I|]. apply nonneg_app; split; assumption.
Qed.

(* the bookkeeping of a first call keeps Q: the entry instant it records is not in the future *)
Lemma Q_enter_bk m s nss m1 init bk : enter_bk sh m s nss = (m1, init, bk) ->
  Q m -> cur m = Some s -> nss <= clk m - start m ->
  Q (m1 <| ncall := S (ncall m1) |>) /\ st_start (sdat m1 s) <= clk m - start m.
Proof.
  intros Hbk HQ Hc Hnss. pose proof HQ as (Hr & Hs & Ht1 & Ht2). revert Hbk. unfold enter_bk.
  destruct (ran (sdat m s)) eqn:Er; intros [= <- _ _].
  - split; [exact HQ | exact (Ht2 s Hc Er)].
  - cbn. unfold upd at 2. rewrite Nat.eqb_refl. split; [|exact Hnss].
    split; [exact Hr|]. split; [exact Hs|]. split; [exact Ht1|].
    cbn. intros s0 Hs0 _. assert (s0 = s) by congruence. subst s0. unfold upd. rewrite Nat.eqb_refl. exact Hnss.
Qed.

Lemma exec_step_inv m now : wf_shape -> Inv m -> ok (snd (exec_step sh body nested m now)) ->
  Inv (fst (exec_step sh body nested m now)) /\ nonneg (snd (exec_step sh body nested m now)).
Proof.
  intros Hwf HI. pose proof (selected_post m now Hwf HI) as HP. pose proof (selected_silent sh m now) as Hx.
  pose proof (exec_step_spec sh body nested m now) as Hspec. revert HP Hx Hspec.
  generalize (selected sh m now). intros x HP Hx Hspec.
  destruct Hspec as [_|_ _ _|_ _ _|s m1 init bk m2 e _ Hst Hbk tm stm Hrun]; intros Hok.
  - split; [apply Inv_later; [exact HI | apply back_ok, Hok] | apply silent_nonneg, back_silent].
  - apply ok_app in Hok. destruct (HP (proj1 Hok) (proj2 Hok)) as [_ HQ].
    split; [apply Q_Inv; [exact HQ | reflexivity]|].
    apply nonneg_after_silent; [apply back_silent | apply silent_nonneg, Hx].
  - split; [apply Q_Inv; [apply (Q_done (s_m x)) | reflexivity]|].
    apply nonneg_after_silent; [apply back_silent|].
    apply nonneg_after_silent; [exact Hx | repeat constructor].
  - rewrite !ok_app, ok_cons in Hok. destruct Hok as (Hback & Hokx & _ & _ & Hok).
    destruct (HP Hback Hokx) as [(Hc & Hk & Htm & Hnss) HQ]. rewrite Hst in Hc.
    rewrite Htm, <- Hk in Hnss.
    destruct (Q_enter_bk _ _ _ _ _ _ Hbk HQ (eq_sym Hc) Hnss) as [HQ1 Hstm].
    destruct (run_actions_Q _ _ _ _ Hrun HQ1 Hok) as [HQ2 Hnn2].
    split; [apply Q_Inv; [exact HQ2 | reflexivity]|].
    apply nonneg_after_silent; [apply back_silent|].
    apply nonneg_after_silent; [exact Hx|].
    apply nonneg_after_silent; [eapply enter_bk_silent, Hbk|].
    constructor; [|exact Hnn2]. cbn. unfold stm, tm. rewrite Htm, <- Hk. split; [lia|].
    rewrite (enter_bk_engaged sh _ _ _ _ _ _ Hbk). intros He. pose proof (Q_start _ HQ He). lia.
Qed.
End Step.

Theorem exec_inv fuel : forall m now, wf_shape -> Inv m -> ok (snd (exec sh body fuel m now)) ->
  Inv (fst (exec sh body fuel m now)) /\ should (fst (exec sh body fuel m now)) = false
  /\ nonneg (snd (exec sh body fuel m now)).
Proof.
  induction fuel as [|f IH]; intros m now Hwf HI; cbn [exec].
  - cbn. intros H. exfalso. eapply not_ok_err, H.
  - intros Hok. destruct (exec_step_inv (exec sh body f) (fun m now => IH m now Hwf) m now Hwf HI Hok) as [H1 H2].
    split; [exact H1|]. split; [apply exec_step_should | exact H2].
Qed.

End P.
