(* The expiry test as it was before the repair of defect D6
   (`if state is not None and state.expires < tm:` -- no `state.ran` guard),
   and the witnesses that this variant violates C15.  Everything else is the
   model of Stateful.Model (same [iteration_gen]). *)
From Coq Require Import ZArith List Bool Lia.
From RecordUpdate Require Import RecordSet.
Import ListNotations RecordSetNotations.
From RV Require Import Stateful.Model.
Open Scope Z_scope.

Definition expired_legacy (d : sdata) (tm : Z) : bool := st_exp d <? tm.

Definition on_iteration_legacy (sh : shape) := iteration_gen sh expired_legacy.

Definition step_legacy (sh : shape) (m : mach) (o : op) : mach * list event :=
  match o with
  | OnIteration tm b => on_iteration_legacy sh m tm b
  | _ => step sh m o
  end.

Fixpoint run_legacy (sh : shape) (m : mach) (h : list op) : mach * list event :=
  match h with
  | [] => (m, [])
  | o :: r => let '(m1, e1) := step_legacy sh m o in
              let '(m2, e2) := run_legacy sh m1 r in (m2, e1 ++ e2)
  end.

Definition final_legacy sh h := fst (run_legacy sh (init_mach sh) h).
Definition trace_legacy sh h := snd (run_legacy sh (init_mach sh) h).

(* The D6 witness (ticks of 1/64 s): a = state 0, timed 1 s, first, next b;
   b = state 1, untimed, calls next_state('a') once tm >= 2 s; on_iteration
   every 0.25 s. *)
Definition d6_shape : shape :=
  {| sh_states := [(0%nat, Timed 64 (Some 1%nat)); (1%nat, Untimed)];
     sh_first := 0%nat; sh_inf := 4294967295 * 64 |}.
Definition d6_body : ubody :=
  fun s tm _ _ => if Nat.eqb s 1 && (128 <=? tm) then [ANext 0%nat] else [].
Definition d6_iters (n : nat) : list op :=
  map (fun i => OnIteration (16 * Z.of_nat i) d6_body) (seq 0 n).
Definition d6_history : list op := OnEnable (fun _ => None) :: d6_iters 9.

(* After the 9 iterations tm = 0 .. 2 s, b has just called next_state('a'):
   every observer sees `a` entered.  The legacy code then tests a's stale
   expires (1 s) against tm = 2.25 s BEFORE a has run, skips a and calls b
   (again with initial_call = true): the entered state does not run. *)
Example d6_legacy_next_iteration :
  calls (snd (on_iteration_legacy d6_shape (final_legacy d6_shape d6_history) 144 d6_body))
  = [EvCall 1%nat 144 80 true].
Proof. vm_compute. reflexivity. Qed.

Theorem C15_legacy_refuted :
  exists sh h s tm b,
    declared sh (sh_first sh) = true /\
    mono None (h ++ [OnIteration tm b]) /\
    status_tr (trace_legacy sh h) = Entered s /\
    calls (snd (on_iteration_legacy sh (final_legacy sh h) tm b)) <> [EvCall s tm 0 true].
Proof.
  exists d6_shape, d6_history, 0%nat, 144, d6_body.
  split; [reflexivity|]. split; [cbn; lia|]. split; [vm_compute; reflexivity|].
  rewrite d6_legacy_next_iteration. discriminate.
Qed.

(* `a` never runs again and b is "initially called" on every iteration *)
Example d6_legacy_a_skipped_forever :
  calls (skipn 12 (trace_legacy d6_shape (OnEnable (fun _ => None) :: d6_iters 14)))
  = [EvCall 1%nat 144 80 true; EvCall 1%nat 160 96 true; EvCall 1%nat 176 112 true;
     EvCall 1%nat 192 128 true; EvCall 1%nat 208 144 true].
Proof. vm_compute. reflexivity. Qed.

(* the repaired model on the same history: a runs, with initial_call *)
Example d6_repaired :
  calls (iter_after d6_shape d6_history 144 d6_body) = [EvCall 0%nat 144 0 true].
Proof. vm_compute. reflexivity. Qed.

(* Second symptom: the second period depends on the first.  One state a
   (1 s, first); period 1 runs it at tm = 0; period 2 starts late, at
   tm = 5 s > a's stale expires: the legacy code skips the first state. *)
Definition d6_shape2 : shape :=
  {| sh_states := [(0%nat, Timed 64 None)]; sh_first := 0%nat; sh_inf := 4294967295 * 64 |}.
Definition quiet : ubody := fun _ _ _ _ => [].

Example d6_legacy_second_period :
  snd (run_legacy d6_shape2 (final_legacy d6_shape2 [OnEnable (fun _ => None); OnIteration 0 quiet])
         [OnEnable (fun _ => None); OnIteration 320 quiet])
  = [EvEnter (Some 0%nat); EvEnter None]
  /\ trace_legacy d6_shape2 [OnEnable (fun _ => None); OnIteration 320 quiet]
  = [EvEnter (Some 0%nat); EvCall 0%nat 320 0 true].
Proof. split; vm_compute; reflexivity. Qed.

Theorem C15_legacy_period_dependent :
  exists sh h d p,
    declared sh (sh_first sh) = true /\ mono None (h ++ OnEnable d :: p) /\
    snd (run_legacy sh (final_legacy sh h) (OnEnable d :: p)) <> trace_legacy sh (OnEnable d :: p).
Proof.
  exists d6_shape2, [OnEnable (fun _ => None); OnIteration 0 quiet], (fun _ => None),
         [OnIteration 320 quiet].
  split; [reflexivity|]. split; [cbn; lia|].
  destruct d6_legacy_second_period as [-> ->]. discriminate.
Qed.

Print Assumptions C15_legacy_refuted.
Print Assumptions C15_legacy_period_dependent.
