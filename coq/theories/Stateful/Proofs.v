(* Lemmas and theorems about Stateful.Model, for all shapes, all user code
   (carried by the operations) and all histories.  [on_iteration] is first put
   in a flat form decided by the observer's status ([on_iteration_eq],
   [iter_cases]).  What holds of the machine after a history (status, durations,
   clock, initial_call) is a lemma about one operation ([step_...]) and an
   induction on the history from its end; what holds of the run from a machine
   on ([after_end], [run_same], [run_nonneg]) an induction from its front. *)
From Coq Require Import ZArith List Bool Lia.
From RecordUpdate Require Import RecordSet.
Import ListNotations RecordSetNotations.
From RV Require Import Stateful.Model.
Open Scope Z_scope.

(* the observers of a trace, on a concatenation and on events that are not calls *)

Lemma calls_app a b : calls (a ++ b) = calls a ++ calls b.
Proof. apply filter_app. Qed.

Lemma status_tr_app a b : status_tr (a ++ b) = fold_left status_ev b (status_tr a).
Proof. unfold status_tr. apply fold_left_app. Qed.

Lemma last_call_start_app a b acc :
  last_call_start (a ++ b) acc = last_call_start b (last_call_start a acc).
Proof.
  revert acc. induction a as [|e a IH]; intros acc; cbn; [reflexivity|].
  destruct e; apply IH.
Qed.

Lemma last_call_start_nocalls e acc : calls e = [] -> last_call_start e acc = acc.
Proof.
  induction e as [|x e IH]; intros H; [reflexivity|].
  destruct x; try discriminate; exact (IH H).
Qed.

Lemma init_discipline_app a b st :
  init_discipline st (a ++ b) <->
  init_discipline st a /\ init_discipline (fold_left status_ev a st) b.
Proof.
  revert st. induction a as [|e a IH]; intros st; cbn; [|rewrite IH]; tauto.
Qed.

Lemma init_discipline_nocalls e st : calls e = [] -> init_discipline st e.
Proof.
  revert st. induction e as [|x e IH]; intros st H; [exact I|].
  destruct x; try discriminate; exact (conj I (IH _ H)).
Qed.

Lemma nonneg_nocalls e : calls e = [] -> Forall nonneg_ev e.
Proof.
  induction e as [|x e IH]; intros H; [constructor|].
  destruct x; try discriminate; (constructor; [exact I|exact (IH H)]).
Qed.

Lemma last_dash_app a b acc : last_dash (a ++ b) acc = last_dash b (last_dash a acc).
Proof.
  revert acc. induction a as [|o a IH]; intros acc; cbn; [reflexivity|].
  destruct o; apply IH.
Qed.

Lemma upd_same {A} (f : name -> A) k v : upd f k v k = v.
Proof. unfold upd. rewrite Nat.eqb_refl. reflexivity. Qed.

Lemma status_entered_iff m s : status_of m = Entered s <->
  enabled m = true /\ cur m = Some s /\ ran (sdat m s) = false.
Proof.
  unfold status_of. split; [|intros (-> & -> & ->); reflexivity].
  destruct (enabled m); [|discriminate]. destruct (cur m) as [c|]; [|discriminate]. cbn.
  destruct (ran (sdat m c)) eqn:R; [discriminate|]. intros [= <-]. auto.
Qed.

Lemma status_running_iff m s : status_of m = Running s <->
  enabled m = true /\ cur m = Some s /\ ran (sdat m s) = true.
Proof.
  unfold status_of. split; [|intros (-> & -> & ->); reflexivity].
  destruct (enabled m); [|discriminate]. destruct (cur m) as [c|]; [|discriminate]. cbn.
  destruct (ran (sdat m c)) eqn:R; [|discriminate]. intros [= <-]. auto.
Qed.

Lemma status_ended_iff m : status_of m = Ended <-> enabled m = true /\ cur m = None.
Proof.
  unfold status_of. split; [|intros (-> & ->); reflexivity].
  destruct (enabled m); [|discriminate]. destruct (cur m) as [c|]; [|auto]. cbn.
  destruct (ran (sdat m c)); discriminate.
Qed.

Lemma status_notenabled_inv m : status_of m = NotEnabled -> enabled m = false.
Proof.
  unfold status_of. destruct (enabled m); cbn; [|reflexivity].
  destruct (cur m) as [c|]; [|discriminate]. destruct (ran (sdat m c)); discriminate.
Qed.

Section P.
Variable sh : shape.

Notation next_state := (next_state sh).
Notation run_actions := (run_actions sh).
Notation on_iteration := (on_iteration sh).
Notation on_enable := (on_enable sh).
Notation step := (step sh).
Notation run := (run sh).
Notation duration_of := (duration_of sh).

Lemma run_cons m o r :
  run m (o :: r) = (fst (run (fst (step m o)) r), snd (step m o) ++ snd (run (fst (step m o)) r)).
Proof. cbn. destruct (step m o) as [m1 e1]. cbn. destruct (run m1 r). reflexivity. Qed.

Lemma run_app m h1 h2 :
  run m (h1 ++ h2) =
  (fst (run (fst (run m h1)) h2), snd (run m h1) ++ snd (run (fst (run m h1)) h2)).
Proof.
  revert m. induction h1 as [|o r IH]; intros m; [cbn; destruct (run m h2); reflexivity|].
  cbn [app]. rewrite !run_cons, IH. cbn [fst snd]. rewrite app_assoc. reflexivity.
Qed.

Lemma final_app h1 h2 : final sh (h1 ++ h2) = fst (run (final sh h1) h2).
Proof. unfold final. rewrite run_app. reflexivity. Qed.

Lemma trace_app h1 h2 : trace sh (h1 ++ h2) = trace sh h1 ++ trace_from sh (final sh h1) h2.
Proof. unfold trace, trace_from, final. rewrite run_app. reflexivity. Qed.

Lemma final_snoc h o : final sh (h ++ [o]) = fst (step (final sh h) o).
Proof. rewrite final_app, run_cons. reflexivity. Qed.

Lemma trace_snoc h o : trace sh (h ++ [o]) = trace sh h ++ snd (step (final sh h) o).
Proof. rewrite trace_app. unfold trace_from. rewrite run_cons. cbn. rewrite app_nil_r. reflexivity. Qed.

(* the assignments the code makes on entry / on the first call *)
Definition ns (m : mach) (s : name) : mach :=
  m <| enabled := true |> <| cur := Some s |>
    <| sdat := upd (sdat m) s (sdat m s <| ran := false |>) |>.
Definition bk (m : mach) (s : name) (nss : Z) : mach :=
  m <| sdat := upd (sdat m) s {| ran := true; st_start := nss;
                                 st_exp := nss + duration_of m s |} |>.

Lemma next_state_eq m s : next_state m s = if declared sh s then Some (ns m s) else None.
Proof. reflexivity. Qed.

Lemma status_ns m s : status_of (ns m s) = Entered s.
Proof. unfold status_of. cbn. rewrite upd_same. reflexivity. Qed.

Lemma status_done m : status_of (done m) = Ended.
Proof. reflexivity. Qed.

Lemma bk_sdat m s x :
  sdat (bk m s x) s = {| ran := true; st_start := x; st_exp := x + duration_of m s |}.
Proof. apply upd_same. Qed.

Lemma status_bk m s x : status_of m = Entered s -> status_of (bk m s x) = Running s.
Proof.
  intros H. apply status_entered_iff in H as (E & C & _).
  apply status_running_iff. rewrite bk_sdat. auto.
Qed.

Lemma duration_of_ext m m' s : (forall x, dur m' x = dur m x) -> duration_of m' s = duration_of m s.
Proof. intros H. unfold Model.duration_of. rewrite H. reflexivity. Qed.

(* run_actions follows the list for as long as the names are declared; what
   holds of its result is shown along this recursion *)
Lemma run_actions_ind (P : list action -> mach -> mach * list event -> Prop) :
  (forall m, P [] m (m, [])) ->
  (forall n r m, declared sh n = false -> P (ANext n :: r) m (m, [EvErr ErrAttr])) ->
  (forall n r m res, declared sh n = true -> P r (ns m n) res ->
     P (ANext n :: r) m (fst res, EvEnter (Some n) :: snd res)) ->
  (forall r m res, P r (done m) res -> P (ADone :: r) m (fst res, EvEnter None :: snd res)) ->
  forall acts m, P acts m (run_actions acts m).
Proof.
  intros H0 Hu Hn Hd. induction acts as [|[n|] r IH]; intros m; cbn [Model.run_actions].
  - apply H0.
  - rewrite next_state_eq. destruct (declared sh n) eqn:D; [|apply Hu, D].
    specialize (Hn n r m _ D (IH (ns m n))). destruct (run_actions r (ns m n)). exact Hn.
  - specialize (Hd r m _ (IH (done m))). destruct (run_actions r (done m)). exact Hd.
Qed.

Lemma run_actions_nocalls acts m : calls (snd (run_actions acts m)) = [].
Proof.
  revert acts m. apply (run_actions_ind (fun _ _ res => calls (snd res) = [])); auto.
Qed.

Lemma run_actions_dur acts m : dur (fst (run_actions acts m)) = dur m.
Proof.
  revert acts m. apply (run_actions_ind (fun _ m res => dur (fst res) = dur m)); auto.
Qed.

Lemma run_actions_status acts m :
  status_of (fst (run_actions acts m)) =
  fold_left status_ev (snd (run_actions acts m)) (status_of m).
Proof.
  revert acts m.
  apply (run_actions_ind (fun _ m res =>
           status_of (fst res) = fold_left status_ev (snd res) (status_of m))); auto.
  intros n r m res _ IH. rewrite status_ns in IH. exact IH.
Qed.

Lemma run_actions_status_acts acts m :
  status_of (fst (run_actions acts m)) = status_acts sh acts (status_of m).
Proof.
  revert acts m.
  apply (run_actions_ind (fun acts m res =>
           status_of (fst res) = status_acts sh acts (status_of m))); cbn [status_acts]; auto.
  - intros n r m D. rewrite D. reflexivity.
  - intros n r m res D IH. rewrite D, <- (status_ns m n). exact IH.
Qed.

(* every action that takes effect leaves the mode Entered or Ended: if it is
   Running afterwards, none did *)
Lemma run_actions_running acts m x :
  status_of (fst (run_actions acts m)) = Running x -> fst (run_actions acts m) = m.
Proof.
  revert acts m x.
  apply (run_actions_ind (fun _ m res => forall x, status_of (fst res) = Running x -> fst res = m));
    auto; cbn [fst].
  - intros n r m res _ IH x H. rewrite (IH x H), status_ns in H. discriminate.
  - intros r m res IH x H. rewrite (IH x H) in H. discriminate.
Qed.

(* on_iteration, flat: what it does is decided by the status, and for a
   running state by its expiry and its declaration *)

Definition then_call (m2 : mach) (pre : list event) (s : name) (tm stm : Z) (init : bool)
  (b : ubody) : mach * list event :=
  (fst (run_actions (b s tm stm init) m2),
   pre ++ EvCall s tm stm init :: snd (run_actions (b s tm stm init) m2)).

(* the first-call bookkeeping on a state just entered and on one that has run *)
Lemma enter_bk_fresh m s x : ran (sdat m s) = false -> enter_bk sh m s x = (bk m s x, true).
Proof. intros R. unfold enter_bk. rewrite R. reflexivity. Qed.
Lemma enter_bk_ran m s x : ran (sdat m s) = true -> enter_bk sh m s x = (m, false).
Proof. intros R. unfold enter_bk. rewrite R. reflexivity. Qed.
Lemma ns_ran m n : ran (sdat (ns m n) n) = false.
Proof. cbn. rewrite upd_same. reflexivity. Qed.

(* what on_iteration does once the expiry test has answered, for a machine at state [s] *)
Definition call_tail (m1 : mach) (nss : Z) (ev : list event) (s : name) (tm : Z) (b : ubody)
  : mach * list event :=
  let '(m2, init) := enter_bk sh m1 s nss in
  let stm := tm - st_start (sdat m2 s) in
  let '(m3, e) := run_actions (b s tm stm init) m2 in
  (m3, ev ++ EvCall s tm stm init :: e).

Lemma call_tail_fresh m1 nss ev s tm b : ran (sdat m1 s) = false ->
  call_tail m1 nss ev s tm b = then_call (bk m1 s nss) ev s tm (tm - nss) true b.
Proof.
  intros R. unfold call_tail, then_call. rewrite (enter_bk_fresh _ _ _ R), bk_sdat. cbn [st_start].
  destruct (run_actions _ _). reflexivity.
Qed.
Lemma call_tail_ran m1 nss ev s tm b : ran (sdat m1 s) = true ->
  call_tail m1 nss ev s tm b = then_call m1 ev s tm (tm - st_start (sdat m1 s)) false b.
Proof.
  intros R. unfold call_tail, then_call. rewrite (enter_bk_ran _ _ _ R).
  destruct (run_actions _ _). reflexivity.
Qed.

Lemma on_iteration_eq m tm b :
  on_iteration m tm b =
  match status_of m with
  | NotEnabled => (m, [EvErr ErrNotEnabled])
  | Ended => (m <| fin := true |>, [])
  | Entered s => then_call (bk m s tm) [] s tm 0 true b
  | Running s =>
      if st_exp (sdat m s) <? tm then
        match lookup sh s with
        | Some (Timed _ (Some n)) =>
            if declared sh n
            then then_call (bk (ns m n) n (st_exp (sdat m s))) [EvEnter (Some n)] n tm
                           (tm - st_exp (sdat m s)) true b
            else (m, [EvErr ErrAttr])
        | Some (Timed _ None) => (done m <| fin := true |>, [EvEnter None])
        | _ => (m, [EvErr ErrAttr])
        end
      else then_call m [] s tm (tm - st_start (sdat m s)) false b
  end.
Proof.
  unfold status_of, Model.on_iteration, iteration_gen, expire, expired_now.
  destruct (enabled m); [cbn [negb]|reflexivity].
  destruct (cur m) as [s|] eqn:C; [|rewrite C; reflexivity].
  destruct (ran (sdat m s)) eqn:R; cbn [andb].
  - destruct (st_exp (sdat m s) <? tm).
    + destruct (lookup sh s) as [[dflt [n|]|]|]; try reflexivity.
      rewrite next_state_eq. destruct (declared sh n); [|reflexivity].
      (* handed over to [n], entered at the expiry instant *)
      change (cur (ns m n)) with (Some n).
      fold (call_tail (ns m n) (st_exp (sdat m s)) [EvEnter (Some n)] n tm b).
      apply call_tail_fresh, ns_ran.
    + rewrite C. fold (call_tail m tm [] s tm b). apply call_tail_ran, R.
  - rewrite C. fold (call_tail m tm [] s tm b).
    rewrite (call_tail_fresh _ _ _ _ _ _ R), Z.sub_diag. reflexivity.
Qed.

(* the possible shapes of the machine and the events after on_iteration, for
   the invariants below (status, clock, state_tm >= 0); under which condition
   of the state table each arises is forgotten here (the successor [n] of
   [IV_handover] is any name, [IV_no_successor] stands for three cases):
   the clause theorems take that from [on_iteration_eq] *)
Inductive iter_view (m : mach) (tm : Z) (b : ubody) : mach * list event -> Prop :=
| IV_not_enabled : status_of m = NotEnabled -> iter_view m tm b (m, [EvErr ErrNotEnabled])
| IV_ended : status_of m = Ended -> iter_view m tm b (m <| fin := true |>, [])
| IV_entered s : status_of m = Entered s ->
    iter_view m tm b (then_call (bk m s tm) [] s tm 0 true b)
| IV_hold s : status_of m = Running s -> tm <= st_exp (sdat m s) ->
    iter_view m tm b (then_call m [] s tm (tm - st_start (sdat m s)) false b)
| IV_handover s n : status_of m = Running s -> st_exp (sdat m s) < tm ->
    iter_view m tm b (then_call (bk (ns m n) n (st_exp (sdat m s))) [EvEnter (Some n)] n tm
                                (tm - st_exp (sdat m s)) true b)
| IV_last s : status_of m = Running s -> st_exp (sdat m s) < tm ->
    iter_view m tm b (done m <| fin := true |>, [EvEnter None])
| IV_no_successor s : status_of m = Running s -> st_exp (sdat m s) < tm ->
    iter_view m tm b (m, [EvErr ErrAttr]).

Lemma iter_cases m tm b : iter_view m tm b (on_iteration m tm b).
Proof.
  rewrite on_iteration_eq. destruct (status_of m) as [|s|s|] eqn:S; try (constructor; exact S).
  destruct (Z.ltb_spec (st_exp (sdat m s)) tm) as [T|T]; [|apply IV_hold; assumption].
  destruct (lookup sh s) as [[dflt [n|]|]|]; [destruct (declared sh n)|..].
  - apply (IV_handover m tm b s n); assumption.
  - apply (IV_no_successor m tm b s); assumption.
  - apply (IV_last m tm b s); assumption.
  - apply (IV_no_successor m tm b s); assumption.
  - apply (IV_no_successor m tm b s); assumption.
Qed.

Lemma then_call_calls m2 pre s tm stm init b : calls pre = [] ->
  calls (snd (then_call m2 pre s tm stm init b)) = [EvCall s tm stm init].
Proof.
  intros H. unfold then_call. cbn [snd]. rewrite calls_app, H. cbn. rewrite run_actions_nocalls.
  reflexivity.
Qed.

(* for any [st]: the EvCall among the events overwrites the status before it *)
Lemma then_call_status m2 pre s tm stm init b st : status_of m2 = Running s ->
  status_of (fst (then_call m2 pre s tm stm init b)) =
  fold_left status_ev (snd (then_call m2 pre s tm stm init b)) st.
Proof.
  intros H. unfold then_call. cbn [fst snd]. rewrite run_actions_status, fold_left_app, H.
  reflexivity.
Qed.

Lemma then_call_status_acts m2 pre s tm stm init b : status_of m2 = Running s ->
  status_of (fst (then_call m2 pre s tm stm init b)) = status_acts sh (b s tm stm init) (Running s).
Proof. intros H. unfold then_call. cbn [fst]. rewrite run_actions_status_acts, H. reflexivity. Qed.

Lemma then_call_running m2 pre s tm stm init b s' : status_of m2 = Running s ->
  status_of (fst (then_call m2 pre s tm stm init b)) = Running s' ->
  s' = s /\ fst (then_call m2 pre s tm stm init b) = m2.
Proof.
  intros H H'. cbn [then_call fst] in *. rewrite (run_actions_running _ _ _ H') in H' |- *.
  split; [congruence|reflexivity].
Qed.

Lemma enable_eq m d :
  on_enable m d =
  if declared sh (sh_first sh)
  then (ns (read_dashboard sh m d) (sh_first sh) <| fin := false |>, [EvEnter (Some (sh_first sh))])
  else (read_dashboard sh m d, [EvErr ErrAttr]).
Proof.
  unfold Model.on_enable. rewrite next_state_eq. destruct (declared sh (sh_first sh)); reflexivity.
Qed.

(* the observer's status is the machine's status *)

Lemma step_status m o :
  status_of (fst (step m o)) = fold_left status_ev (snd (step m o)) (status_of m).
Proof.
  destruct o as [d|tm b|]; cbn [Model.step]; [| |reflexivity].
  { rewrite enable_eq. destruct (declared sh (sh_first sh)); [apply status_ns|reflexivity]. }
  destruct (iter_cases m tm b) as [S|S|s S|s S T|s n S T|s S T|s S T].
  - (* not enabled *) reflexivity.
  - (* ended *) reflexivity.
  - (* entered *) apply then_call_status, status_bk, S.
  - (* held *) apply then_call_status, S.
  - (* handed over *) apply then_call_status, status_bk, status_ns.
  - (* last state expired *) reflexivity.
  - (* no successor *) reflexivity.
Qed.

Theorem status_observable h : status_of (final sh h) = status_tr (trace sh h).
Proof.
  induction h as [|o h IH] using rev_ind; [reflexivity|].
  rewrite final_snoc, trace_snoc, status_tr_app, <- IH. apply step_status.
Qed.

(* the durations in force are those read at the last on_enable *)

Definition dur_untimed (m : mach) : Prop :=
  forall s, match lookup sh s with Some (Timed _ _) => True | _ => dur m s = None end.

Definition dur_ok (od : option (name -> option Z)) (m : mach) : Prop :=
  dur_untimed m /\
  match od with
  | None => enabled m = false
  | Some d => forall s, duration_of m s = period_duration sh d s
  end.

(* dur_ok reads [dur], and [enabled] only before the first on_enable *)
Lemma dur_ok_dur od m m' : dur m' = dur m -> (od = None -> enabled m' = false) ->
  dur_ok od m -> dur_ok od m'.
Proof.
  intros Hd He [H1 H2]. split.
  - intros s. rewrite Hd. apply H1.
  - destruct od as [d|]; [|apply He; reflexivity]. intros s. rewrite <- H2.
    apply duration_of_ext. intros x. rewrite Hd. reflexivity.
Qed.

Lemma dur_ok_ext od m m' : dur m' = dur m -> enabled m' = enabled m -> dur_ok od m -> dur_ok od m'.
Proof.
  intros Hd He H. apply (dur_ok_dur od m); [exact Hd| |exact H].
  intros ->. rewrite He. apply H.
Qed.

(* on_enable assigns the attributes of the timed states only *)
Lemma read_dashboard_untimed m d : dur_untimed m -> dur_untimed (read_dashboard sh m d).
Proof.
  intros H s. specialize (H s). cbn. destruct (lookup sh s) as [[dflt nx|]|].
  - (* timed *) exact I.
  - (* untimed *) exact H.
  - (* not a state *) exact H.
Qed.

Lemma read_dashboard_duration m d s : dur_untimed m ->
  duration_of (read_dashboard sh m d) s = period_duration sh d s.
Proof.
  intros H. specialize (H s). unfold Model.duration_of, period_duration. cbn.
  destruct (lookup sh s) as [[dflt nx|]|].
  - (* timed: the value just read *) reflexivity.
  - (* untimed: no attribute, so the constant *) rewrite H. reflexivity.
  - (* not a state *) rewrite H. reflexivity.
Qed.

Lemma read_dashboard_ok m d : dur_untimed m -> dur_ok (Some d) (read_dashboard sh m d).
Proof.
  intros H. split; [apply read_dashboard_untimed, H | intros s; apply read_dashboard_duration, H].
Qed.

Lemma step_dur m o :
  dur (fst (step m o)) = match o with OnEnable d => dur (read_dashboard sh m d) | _ => dur m end.
Proof.
  destruct o as [d|tm b|]; cbn [Model.step]; [| |reflexivity].
  - rewrite enable_eq. destruct (declared sh (sh_first sh)); reflexivity.
  - destruct (iter_cases m tm b); unfold then_call; cbn [fst]; rewrite ?run_actions_dur; reflexivity.
Qed.

Lemma iter_not_enabled m tm b : enabled m = false -> on_iteration m tm b = (m, [EvErr ErrNotEnabled]).
Proof. intros E. unfold Model.on_iteration, iteration_gen. rewrite E. reflexivity. Qed.

Lemma step_dur_ok od m o : dur_ok od m -> dur_ok (last_dash [o] od) (fst (step m o)).
Proof.
  intros H. pose proof (step_dur m o) as D. destruct o as [d|tm b|]; cbn [last_dash].
  - apply (dur_ok_dur _ (read_dashboard sh m d)); [exact D|discriminate|apply read_dashboard_ok, H].
  - apply (dur_ok_dur od m); [exact D| |exact H]. intros ->. cbn [Model.step].
    (* before the first on_enable an iteration leaves the machine as it is *)
    destruct H as [_ E]. cbn in E. rewrite (iter_not_enabled m tm b E). exact E.
  - exact H.
Qed.

Lemma step_dur_untimed m o : dur_untimed m -> dur_untimed (fst (step m o)).
Proof.
  intros U s. rewrite step_dur. destruct o; try apply U. apply (read_dashboard_untimed m _ U).
Qed.

Lemma init_dur_ok : dur_ok None (init_mach sh).
Proof. split; [|reflexivity]. intros s. destruct (lookup sh s) as [[? ?|]|]; exact I || reflexivity. Qed.

Theorem durations_from_last_enable h : dur_ok (last_dash h None) (final sh h).
Proof.
  induction h as [|o h IH] using rev_ind; [exact init_dur_ok|].
  rewrite final_snoc, last_dash_app. apply step_dur_ok, IH.
Qed.

Lemma final_dur_untimed h : dur_untimed (final sh h).
Proof. exact (proj1 (durations_from_last_enable h)). Qed.

(* initial_call is true on exactly the first call after an entry *)

Lemma then_call_discipline m2 pre s tm stm init b st :
  init_discipline st pre ->
  (fold_left status_ev pre st = Entered s /\ init = true \/
   fold_left status_ev pre st = Running s /\ init = false) ->
  init_discipline st (snd (then_call m2 pre s tm stm init b)).
Proof.
  intros Hp Hc. unfold then_call. cbn [snd]. apply init_discipline_app. split; [exact Hp|].
  split; [exact Hc|]. apply init_discipline_nocalls, run_actions_nocalls.
Qed.

Lemma step_discipline m o : init_discipline (status_of m) (snd (step m o)).
Proof.
  destruct o as [d|tm b|]; cbn [Model.step]; [| |exact I].
  { rewrite enable_eq. destruct (declared sh (sh_first sh)); cbn; auto. }
  destruct (iter_cases m tm b) as [S|S|s S|s S T|s n S T|s S T|s S T].
  - (* not enabled *) exact (conj I I).
  - (* ended *) exact I.
  - (* entered *) rewrite S. apply then_call_discipline; [exact I | left; split; reflexivity].
  - (* held *) rewrite S. apply then_call_discipline; [exact I | right; split; reflexivity].
  - (* handed over *) rewrite S. apply then_call_discipline; [exact (conj I I) | left; split; reflexivity].
  - (* last state expired *) exact (conj I I).
  - (* no successor *) exact (conj I I).
Qed.

Theorem initial_call_discipline h : init_discipline NotEnabled (trace sh h).
Proof.
  induction h as [|o h IH] using rev_ind; [exact I|].
  rewrite trace_snoc. apply init_discipline_app. split; [exact IH|].
  fold (status_tr (trace sh h)). rewrite <- status_observable. apply step_discipline.
Qed.

(* simulation: what the future depends on.  Of the per-state data only the
   current state's counts, and its st_start / st_exp only once it has run:
   next_state resets [ran], the expiry test reads st_exp only if [ran] (the
   D6 repair; Legacy.v is the model without it), and the first call after an
   entry writes both fields.  So neither earlier runs of a state nor earlier
   periods can show. *)

Definition sd_equiv (a b : sdata) : Prop :=
  ran a = ran b /\ (ran a = true -> st_start a = st_start b /\ st_exp a = st_exp b).

Definition same_future (m1 m2 : mach) : Prop :=
  enabled m1 = enabled m2 /\ cur m1 = cur m2 /\
  (forall s, duration_of m1 s = duration_of m2 s) /\
  (forall s, cur m1 = Some s -> sd_equiv (sdat m1 s) (sdat m2 s)).

Definition same_result (r1 r2 : mach * list event) : Prop :=
  snd r1 = snd r2 /\ same_future (fst r1) (fst r2).

Lemma same_future_refl m : same_future m m.
Proof. repeat split; reflexivity. Qed.

Lemma same_future_status m1 m2 : same_future m1 m2 -> status_of m1 = status_of m2.
Proof.
  intros (E & C & _ & S). unfold status_of. rewrite <- E, <- C.
  destruct (cur m1) as [s|]; [|reflexivity]. destruct (S s eq_refl) as [<- _]. reflexivity.
Qed.

Lemma same_future_clock m1 m2 s : same_future m1 m2 -> status_of m1 = Running s ->
  st_start (sdat m1 s) = st_start (sdat m2 s) /\ st_exp (sdat m1 s) = st_exp (sdat m2 s).
Proof.
  intros (_ & _ & _ & S) H. apply status_running_iff in H as (_ & C & R). apply (S s C), R.
Qed.

Lemma same_future_ns m1 m2 n : (forall s, duration_of m1 s = duration_of m2 s) ->
  same_future (ns m1 n) (ns m2 n).
Proof.
  intros D. split; [reflexivity|]. split; [reflexivity|]. split; [exact D|].
  intros s H. injection H as <-. cbn. rewrite !upd_same. split; [reflexivity|discriminate].
Qed.

Lemma same_future_done m1 m2 : (forall s, duration_of m1 s = duration_of m2 s) ->
  same_future (done m1) (done m2).
Proof. intros D. split; [reflexivity|]. split; [reflexivity|]. split; [exact D|discriminate]. Qed.

Lemma same_future_bk m1 m2 s x : same_future m1 m2 -> status_of m1 = Entered s ->
  same_future (bk m1 s x) (bk m2 s x).
Proof.
  intros (E & C & D & S) H. apply status_entered_iff in H as (_ & Cs & _).
  split; [exact E|]. split; [exact C|]. split; [exact D|].
  intros s' H. cbn in H. rewrite Cs in H. injection H as <-. rewrite !bk_sdat.
  split; [reflexivity|]. split; [reflexivity|]. cbn. f_equal. apply D.
Qed.

Lemma run_actions_same acts m1 : forall m2, same_future m1 m2 ->
  same_result (run_actions acts m1) (run_actions acts m2).
Proof.
  revert acts m1.
  apply (run_actions_ind (fun acts m1 res => forall m2, same_future m1 m2 ->
           same_result res (run_actions acts m2))).
  - intros m1 m2 H. split; [reflexivity|exact H].
  - intros n r m1 D m2 H. cbn [Model.run_actions]. rewrite next_state_eq, D.
    split; [reflexivity|exact H].
  - intros n r m1 res D IH m2 H. cbn [Model.run_actions]. rewrite next_state_eq, D.
    destruct (IH (ns m2 n)) as [E F]; [apply same_future_ns, H|].
    destruct (run_actions r (ns m2 n)). split; [cbn in *; rewrite E; reflexivity|exact F].
  - intros r m1 res IH m2 H. cbn [Model.run_actions].
    destruct (IH (done m2)) as [E F]; [apply same_future_done, H|].
    destruct (run_actions r (done m2)). split; [cbn in *; rewrite E; reflexivity|exact F].
Qed.

Lemma then_call_same m1 m2 pre s tm stm init b : same_future m1 m2 ->
  same_result (then_call m1 pre s tm stm init b) (then_call m2 pre s tm stm init b).
Proof.
  intros H. destruct (run_actions_same (b s tm stm init) m1 m2 H) as [E F].
  split; [cbn; rewrite E; reflexivity|exact F].
Qed.

Lemma iter_same m1 m2 tm b : same_future m1 m2 ->
  same_result (on_iteration m1 tm b) (on_iteration m2 tm b).
Proof.
  intros H. pose proof H as (_ & _ & D & _).
  rewrite !on_iteration_eq, <- (same_future_status _ _ H).
  destruct (status_of m1) as [|s|s|] eqn:S; try (split; [reflexivity|exact H]).
  - apply then_call_same, same_future_bk; assumption.
  - destruct (same_future_clock _ _ s H S) as [<- <-]. destruct (st_exp (sdat m1 s) <? tm).
    + destruct (lookup sh s) as [[dflt [n|]|]|]; [destruct (declared sh n)|..];
        try (split; [reflexivity|exact H]).
      * apply then_call_same, same_future_bk; [apply same_future_ns, D|apply status_ns].
      * split; [reflexivity|apply same_future_done, D].
    + apply then_call_same, H.
Qed.

(* a running state's clock, as an observer knows it *)

Definition clock_ok (tr : list event) (m : mach) : Prop :=
  forall s, status_of m = Running s ->
    last_call_start tr None = Some (s, st_start (sdat m s)) /\
    st_exp (sdat m s) = st_start (sdat m s) + duration_of m s.

Lemma then_call_clock tr m2 pre s tm stm init b :
  status_of m2 = Running s -> calls pre = [] ->
  st_start (sdat m2 s) = tm - stm ->
  st_exp (sdat m2 s) = st_start (sdat m2 s) + duration_of m2 s ->
  clock_ok (tr ++ snd (then_call m2 pre s tm stm init b)) (fst (then_call m2 pre s tm stm init b)).
Proof.
  intros Hs Hp Hst Hex s' Hs'. destruct (then_call_running _ _ _ _ _ _ _ _ Hs Hs') as [-> ->].
  split; [|exact Hex]. cbn [then_call snd].
  rewrite !last_call_start_app, (last_call_start_nocalls pre) by exact Hp. cbn [last_call_start].
  rewrite last_call_start_nocalls by apply run_actions_nocalls. rewrite Hst. reflexivity.
Qed.

Lemma then_call_bk_clock tr m pre s x tm b : status_of m = Entered s -> calls pre = [] ->
  clock_ok (tr ++ snd (then_call (bk m s x) pre s tm (tm - x) true b))
           (fst (then_call (bk m s x) pre s tm (tm - x) true b)).
Proof.
  intros Hs Hp. apply then_call_clock; [apply status_bk, Hs|exact Hp| |]; rewrite bk_sdat; cbn;
    [lia|reflexivity].
Qed.

Lemma clock_ok_nocalls tr m e : calls e = [] -> clock_ok tr m -> clock_ok (tr ++ e) m.
Proof.
  intros N H s Hs. rewrite last_call_start_app, last_call_start_nocalls by exact N. apply H, Hs.
Qed.

(* state_tm is never negative: a running state was started no later than
   the last clock reading [lo] of the period *)

Definition bounded (lo : option Z) (m : mach) : Prop :=
  forall s, status_of m = Running s -> exists l, lo = Some l /\ st_start (sdat m s) <= l.

Lemma bounded_later lo m tm : bounded lo m -> match lo with Some l => l <= tm | None => True end ->
  bounded (Some tm) m.
Proof. intros H Hlo s Hs. destruct (H s Hs) as (l & -> & Hl). exists tm. split; [reflexivity|lia]. Qed.

Lemma then_call_nonneg m2 pre s tm stm init b :
  status_of m2 = Running s -> calls pre = [] -> 0 <= stm -> st_start (sdat m2 s) <= tm ->
  Forall nonneg_ev (snd (then_call m2 pre s tm stm init b)) /\
  bounded (Some tm) (fst (then_call m2 pre s tm stm init b)).
Proof.
  intros Hs Hp Hn Hb. split.
  - apply Forall_app. split; [apply nonneg_nocalls, Hp|]. constructor; [exact Hn|].
    apply nonneg_nocalls, run_actions_nocalls.
  - intros s' Hs'. destruct (then_call_running _ _ _ _ _ _ _ _ Hs Hs') as [-> ->].
    exists tm. split; [reflexivity|exact Hb].
Qed.

Lemma iter_nonneg lo m tm b : bounded lo m ->
  match lo with Some l => l <= tm | None => True end ->
  Forall nonneg_ev (snd (on_iteration m tm b)) /\ bounded (Some tm) (fst (on_iteration m tm b)).
Proof.
  intros H Hlo. pose proof (bounded_later lo m tm H Hlo) as H'.
  destruct (iter_cases m tm b) as [S|S|s S|s S T|s n S T|s S T|s S T].
  - (* not enabled *) split; [repeat constructor|exact H'].
  - (* ended: [bounded] does not read [fin] *) split; [constructor|exact H'].
  - (* entered *) apply then_call_nonneg; [apply status_bk, S|reflexivity|lia|rewrite bk_sdat; cbn; lia].
  - (* held *) destruct (H' s S) as (l & [= <-] & Hl). apply then_call_nonneg; [exact S|reflexivity|lia|lia].
  - (* handed over *)
    apply then_call_nonneg; [apply status_bk, status_ns|reflexivity|lia|rewrite bk_sdat; cbn; lia].
  - (* last state expired: nothing is running *)
    split; [repeat constructor|]. intros s' Hs'. discriminate.
  - (* no successor *) split; [repeat constructor|exact H'].
Qed.

(* the clauses of the property, over histories and in terms of observables
   only; here those that hold whether or not on_enable finds its first state *)

Lemma iter_shape m tm b :
  calls (snd (on_iteration m tm b)) = [] \/
  exists m2 pre s stm init,
    on_iteration m tm b = then_call m2 pre s tm stm init b /\
    status_of m2 = Running s /\ calls pre = [].
Proof.
  destruct (iter_cases m tm b) as [S|S|s S|s S T|s n S T|s S T|s S T].
  - (* not enabled *) left. reflexivity.
  - (* ended *) left. reflexivity.
  - (* entered *) right. do 5 eexists. split; [reflexivity|]. split; [apply status_bk, S|reflexivity].
  - (* held *) right. do 5 eexists. split; [reflexivity|]. split; [exact S|reflexivity].
  - (* handed over *)
    right. do 5 eexists. split; [reflexivity|]. split; [apply status_bk, status_ns|reflexivity].
  - (* last state expired *) left. reflexivity.
  - (* no successor *) left. reflexivity.
Qed.

Lemma status_acts_app acts r : forall st, valid_acts sh acts = true ->
  status_acts sh (acts ++ r) st = status_acts sh r (status_acts sh acts st).
Proof.
  induction acts as [|x acts IH]; intros st V; [reflexivity|].
  cbn in V. apply andb_true_iff in V as [V1 V2].
  destruct x as [n|]; cbn; [rewrite V1|]; apply IH, V2.
Qed.

Lemma status_after_iter h tm b :
  status_tr (trace sh (h ++ [OnIteration tm b])) = status_of (fst (on_iteration (final sh h) tm b)).
Proof. rewrite <- status_observable, final_snoc. reflexivity. Qed.

Theorem entered_runs h s tm b : status_tr (trace sh h) = Entered s ->
  calls (iter_after sh h tm b) = [EvCall s tm 0 true] /\
  status_tr (trace sh (h ++ [OnIteration tm b])) = status_acts sh (b s tm 0 true) (Running s).
Proof.
  intros H. rewrite <- status_observable in H. rewrite status_after_iter. unfold iter_after.
  rewrite on_iteration_eq, H. split; [apply then_call_calls; reflexivity|].
  apply then_call_status_acts, status_bk, H.
Qed.

Lemma after_end p : forall m, status_of m = Ended -> no_enable p ->
  calls (snd (run m p)) = [] /\ status_of (fst (run m p)) = Ended.
Proof.
  induction p as [|o r IH]; intros m Hs Hp; [split; [reflexivity|exact Hs]|].
  inversion Hp as [|? ? Ho Hr]; subst. rewrite run_cons. cbn [fst snd].
  destruct o as [d|tm b|]; [contradiction| |]; cbn [Model.step].
  - rewrite on_iteration_eq, Hs. apply IH; assumption.
  - apply IH; assumption.
Qed.

Theorem after_end_nothing h p : status_tr (trace sh h) = Ended -> no_enable p ->
  calls (trace_from sh (final sh h) p) = [] /\ status_tr (trace sh (h ++ p)) = Ended.
Proof.
  intros H Hp. rewrite <- status_observable in H |- *. rewrite final_app.
  exact (after_end p (final sh h) H Hp).
Qed.

Theorem at_most_one_call h tm b : (length (calls (iter_after sh h tm b)) <= 1)%nat.
Proof.
  unfold iter_after.
  destruct (iter_shape (final sh h) tm b) as [->|(m2 & pre & s & stm & init & -> & Hs & Hp)].
  - cbn. lia.
  - rewrite then_call_calls by exact Hp. cbn. lia.
Qed.

Theorem actions_decide_status h tm b s tm' stm init :
  calls (iter_after sh h tm b) = [EvCall s tm' stm init] ->
  tm' = tm /\
  status_tr (trace sh (h ++ [OnIteration tm b])) = status_acts sh (b s tm stm init) (Running s).
Proof.
  rewrite status_after_iter. unfold iter_after.
  destruct (iter_shape (final sh h) tm b) as [->|(m2 & pre & s0 & stm0 & init0 & -> & Hs & Hp)].
  - discriminate.
  - rewrite then_call_calls by exact Hp. intros [= -> -> -> ->]. split; [reflexivity|].
    apply then_call_status_acts, Hs.
Qed.

Theorem next_state_next_iteration h tm b s stm init acts n :
  calls (iter_after sh h tm b) = [EvCall s tm stm init] ->
  b s tm stm init = acts ++ [ANext n] -> valid_acts sh acts = true -> declared sh n = true ->
  forall tm2 b2,
    calls (iter_after sh (h ++ [OnIteration tm b]) tm2 b2) = [EvCall n tm2 0 true].
Proof.
  intros Hc Hb V D tm2 b2. destruct (actions_decide_status h tm b s tm stm init Hc) as [_ K].
  rewrite Hb, status_acts_app in K by exact V. cbn in K. rewrite D in K.
  apply (entered_runs _ n tm2 b2 K).
Qed.

Theorem done_next_iteration h tm b s stm init acts :
  calls (iter_after sh h tm b) = [EvCall s tm stm init] ->
  b s tm stm init = acts ++ [ADone] -> valid_acts sh acts = true ->
  forall p, no_enable p -> calls (trace_from sh (final sh (h ++ [OnIteration tm b])) p) = [].
Proof.
  intros Hc Hb V p Hp. destruct (actions_decide_status h tm b s tm stm init Hc) as [_ K].
  rewrite Hb, status_acts_app in K by exact V.
  apply (after_end_nothing _ p K Hp).
Qed.

Section WithFirst.
(* the constructor guarantees it: __first is the name of a state found by dir(cls).
   Used through [enable_ok] only: on_enable then enters a state, so that every
   period begins with an entry (without it on_enable raises and leaves whatever
   state was running, with its old clock and the new durations). *)
Hypothesis Hfirst : declared sh (sh_first sh) = true.

Lemma enable_ok m d :
  on_enable m d = (ns (read_dashboard sh m d) (sh_first sh) <| fin := false |>,
                   [EvEnter (Some (sh_first sh))]).
Proof. rewrite enable_eq, Hfirst. reflexivity. Qed.

Lemma enable_entered m d : status_of (fst (on_enable m d)) = Entered (sh_first sh).
Proof. rewrite enable_ok. apply status_ns. Qed.

(* on_enable makes any two machines agree on what the future depends on *)
Lemma enable_same m1 m2 d : dur_untimed m1 -> dur_untimed m2 ->
  same_result (on_enable m1 d) (on_enable m2 d).
Proof.
  intros U1 U2. rewrite !enable_ok. split; [reflexivity|]. apply same_future_ns. intros s.
  rewrite (read_dashboard_duration m1 d s U1). symmetry. apply (read_dashboard_duration m2 d s U2).
Qed.

Lemma step_same m1 m2 o : same_future m1 m2 -> dur_untimed m1 -> dur_untimed m2 ->
  same_result (step m1 o) (step m2 o).
Proof.
  intros H U1 U2. destruct o as [d|tm b|]; cbn [Model.step].
  - apply enable_same; assumption.
  - apply iter_same, H.
  - split; [reflexivity|exact H].
Qed.

Lemma run_same h : forall m1 m2, same_future m1 m2 -> dur_untimed m1 -> dur_untimed m2 ->
  snd (run m1 h) = snd (run m2 h).
Proof.
  induction h as [|o r IH]; intros m1 m2 H U1 U2; [reflexivity|].
  rewrite !run_cons. cbn [snd]. destruct (step_same m1 m2 o H U1 U2) as [-> K].
  f_equal. apply IH; [exact K| |]; apply step_dur_untimed; assumption.
Qed.

Lemma period_same m1 m2 d p : dur_untimed m1 -> dur_untimed m2 ->
  trace_from sh m1 (OnEnable d :: p) = trace_from sh m2 (OnEnable d :: p).
Proof.
  intros U1 U2. unfold trace_from. rewrite !run_cons. cbn [snd Model.step].
  destruct (enable_same m1 m2 d U1 U2) as [-> K].
  f_equal. apply run_same; [exact K| |]; apply (step_dur_untimed _ (OnEnable d)); assumption.
Qed.

(* the trace of a period does not depend on what happened before it *)
Theorem period_independent h d p :
  trace_from sh (final sh h) (OnEnable d :: p) = trace sh (OnEnable d :: p).
Proof. apply period_same; [apply final_dur_untimed|exact (proj1 init_dur_ok)]. Qed.

Corollary period_independent_trace h d p :
  trace sh (h ++ OnEnable d :: p) = trace sh h ++ trace sh (OnEnable d :: p).
Proof. rewrite trace_app, period_independent. reflexivity. Qed.

Lemma step_clock tr m o : clock_ok tr m -> clock_ok (tr ++ snd (step m o)) (fst (step m o)).
Proof.
  intros H. destruct o as [d|tm b|]; cbn [Model.step].
  - intros s Hs. rewrite enable_entered in Hs. discriminate.
  - destruct (iter_cases m tm b) as [S|S|s S|s S T|s n S T|s S T|s S T].
    + apply clock_ok_nocalls, H. reflexivity.
    + apply clock_ok_nocalls, H. reflexivity.
    + replace 0 with (tm - tm) by lia. apply then_call_bk_clock; [exact S|reflexivity].
    + apply then_call_clock; [exact S|reflexivity|lia|apply (H s S)].
    + apply then_call_bk_clock; [apply status_ns|reflexivity].
    + intros s' Hs'. discriminate.
    + apply clock_ok_nocalls, H. reflexivity.
  - apply clock_ok_nocalls, H. reflexivity.
Qed.

Theorem clock_observable h : clock_ok (trace sh h) (final sh h).
Proof.
  induction h as [|o h IH] using rev_ind; [intros s Hs; discriminate|].
  rewrite final_snoc, trace_snoc. apply step_clock, IH.
Qed.

Lemma run_nonneg h : forall lo m, bounded lo m -> mono lo h -> Forall nonneg_ev (snd (run m h)).
Proof.
  induction h as [|o r IH]; intros lo m H Hm; [constructor|].
  rewrite run_cons. cbn [snd]. apply Forall_app.
  destruct o as [d|tm b|]; cbn [Model.step mono] in *.
  - split; [rewrite enable_ok; repeat constructor|].
    apply (IH None); [|exact Hm]. intros s Hs. rewrite enable_entered in Hs. discriminate.
  - destruct Hm as [Hlo Hm]. destruct (iter_nonneg lo m tm b H Hlo) as [K1 K2].
    split; [exact K1|]. apply (IH (Some tm)); assumption.
  - split; [constructor|]. apply (IH lo); assumption.
Qed.

Theorem state_tm_nonneg h : mono None h -> Forall nonneg_ev (trace sh h).
Proof. apply (run_nonneg h None (init_mach sh)). intros s Hs. discriminate. Qed.

Theorem enable_enters_first h d :
  status_tr (trace sh (h ++ [OnEnable d])) = Entered (sh_first sh).
Proof. rewrite <- status_observable, final_snoc. apply enable_entered. Qed.

Theorem first_runs h d tm b :
  calls (iter_after sh (h ++ [OnEnable d]) tm b) = [EvCall (sh_first sh) tm 0 true].
Proof. apply entered_runs, enable_enters_first. Qed.

(* the expiry instant of the running state, from observables: start of its
   most recent call's clock plus the duration read at the last on_enable *)
Lemma expiry_observable h s st0 d : status_tr (trace sh h) = Running s ->
  last_call_start (trace sh h) None = Some (s, st0) -> last_dash h None = Some d ->
  st_start (sdat (final sh h) s) = st0 /\
  st_exp (sdat (final sh h) s) = st0 + period_duration sh d s.
Proof.
  intros H L D. rewrite <- status_observable in H.
  destruct (clock_observable h s H) as [K1 K2]. rewrite L in K1. injection K1 as K1.
  pose proof (proj2 (durations_from_last_enable h)) as K3. rewrite D in K3.
  rewrite K2, K3, <- K1. split; reflexivity.
Qed.

(* the iteration after a history whose mode is running, with the expiry instant in observables *)
Lemma running_iter_eq h s st0 d tm b : status_tr (trace sh h) = Running s ->
  last_call_start (trace sh h) None = Some (s, st0) -> last_dash h None = Some d ->
  on_iteration (final sh h) tm b =
  let m := final sh h in
  if st0 + period_duration sh d s <? tm then
    match lookup sh s with
    | Some (Timed _ (Some n)) =>
        if declared sh n
        then then_call (bk (ns m n) n (st0 + period_duration sh d s)) [EvEnter (Some n)] n tm
                       (tm - (st0 + period_duration sh d s)) true b
        else (m, [EvErr ErrAttr])
    | Some (Timed _ None) => (done m <| fin := true |>, [EvEnter None])
    | _ => (m, [EvErr ErrAttr])
    end
  else then_call m [] s tm (tm - st0) false b.
Proof.
  intros H L D. destruct (expiry_observable h s st0 d H L D) as [K1 K2].
  rewrite <- status_observable in H. rewrite on_iteration_eq, H, K1, K2. reflexivity.
Qed.

Theorem running_has_clock h s : status_tr (trace sh h) = Running s ->
  exists st0 d, last_call_start (trace sh h) None = Some (s, st0) /\ last_dash h None = Some d.
Proof.
  intros H. rewrite <- status_observable in H.
  destruct (clock_observable h s H) as [K1 _].
  pose proof (proj2 (durations_from_last_enable h)) as K3.
  destruct (last_dash h None) as [d|]; [eauto|].
  apply status_running_iff in H as (E & _). congruence.
Qed.

Theorem holds_until_expiry h s st0 d tm b : status_tr (trace sh h) = Running s ->
  last_call_start (trace sh h) None = Some (s, st0) -> last_dash h None = Some d ->
  tm <= st0 + period_duration sh d s ->
  calls (iter_after sh h tm b) = [EvCall s tm (tm - st0) false] /\
  status_tr (trace sh (h ++ [OnIteration tm b])) =
    status_acts sh (b s tm (tm - st0) false) (Running s).
Proof.
  intros H L D T. rewrite status_after_iter. unfold iter_after.
  rewrite (running_iter_eq h s st0 d tm b H L D). cbv zeta. rewrite (proj2 (Z.ltb_ge _ _) T).
  rewrite <- status_observable in H.
  split; [apply then_call_calls; reflexivity|apply then_call_status_acts, H].
Qed.

Theorem hands_over_at_expiry h s st0 d tm b dflt n : status_tr (trace sh h) = Running s ->
  last_call_start (trace sh h) None = Some (s, st0) -> last_dash h None = Some d ->
  st0 + period_duration sh d s < tm ->
  lookup sh s = Some (Timed dflt (Some n)) -> declared sh n = true ->
  let expiry := st0 + period_duration sh d s in
  exists rest,
    iter_after sh h tm b = EvEnter (Some n) :: EvCall n tm (tm - expiry) true :: rest /\
    calls rest = [] /\
    status_tr (trace sh (h ++ [OnIteration tm b])) =
      status_acts sh (b n tm (tm - expiry) true) (Running n).
Proof.
  intros H L D T Hl Hd expiry. rewrite status_after_iter. unfold iter_after.
  rewrite (running_iter_eq h s st0 d tm b H L D). cbv zeta. rewrite (proj2 (Z.ltb_lt _ _) T), Hl, Hd.
  eexists. split; [reflexivity|]. split; [apply run_actions_nocalls|].
  apply then_call_status_acts, status_bk, status_ns.
Qed.

(* ... and the successor's own clock: its expiry is the predecessor's expiry
   plus its own duration (no drift), whatever tm was *)
Theorem successor_clock h s st0 d tm b dflt n : status_tr (trace sh h) = Running s ->
  last_call_start (trace sh h) None = Some (s, st0) -> last_dash h None = Some d ->
  st0 + period_duration sh d s < tm ->
  lookup sh s = Some (Timed dflt (Some n)) -> declared sh n = true ->
  last_call_start (trace sh (h ++ [OnIteration tm b])) None = Some (n, st0 + period_duration sh d s)
  /\ last_dash (h ++ [OnIteration tm b]) None = Some d.
Proof.
  intros H L D T Hl Hd.
  destruct (hands_over_at_expiry h s st0 d tm b dflt n H L D T Hl Hd) as (rest & E & N & _).
  split; [|rewrite last_dash_app; exact D].
  unfold iter_after in E. rewrite trace_snoc, last_call_start_app. cbn [step]. rewrite E. cbn [last_call_start].
  rewrite last_call_start_nocalls by exact N. do 2 f_equal. lia.
Qed.

Theorem last_state_expires h s st0 d tm b dflt : status_tr (trace sh h) = Running s ->
  last_call_start (trace sh h) None = Some (s, st0) -> last_dash h None = Some d ->
  st0 + period_duration sh d s < tm -> lookup sh s = Some (Timed dflt None) ->
  iter_after sh h tm b = [EvEnter None] /\
  status_tr (trace sh (h ++ [OnIteration tm b])) = Ended.
Proof.
  intros H L D T Hl. rewrite status_after_iter. unfold iter_after.
  rewrite (running_iter_eq h s st0 d tm b H L D). cbv zeta.
  rewrite (proj2 (Z.ltb_lt _ _) T), Hl. split; reflexivity.
Qed.

Theorem untimed_overflow h s st0 d tm b : status_tr (trace sh h) = Running s ->
  last_call_start (trace sh h) None = Some (s, st0) -> last_dash h None = Some d ->
  st0 + sh_inf sh < tm -> lookup sh s = Some Untimed ->
  iter_after sh h tm b = [EvErr ErrAttr].
Proof.
  intros H L D T Hl. unfold iter_after.
  rewrite (running_iter_eq h s st0 d tm b H L D). cbv zeta.
  (* an untimed state's duration is the constant *)
  unfold period_duration. rewrite Hl. cbv beta iota. rewrite (proj2 (Z.ltb_lt _ _) T). reflexivity.
Qed.

(* re-entry: once a state is entered, the future depends on the durations in
   force only -- not on how or how often the state (or any other) ran before *)
Theorem reentry_independent h1 h2 s p :
  status_tr (trace sh h1) = Entered s -> status_tr (trace sh h2) = Entered s ->
  (forall x, duration_of (final sh h1) x = duration_of (final sh h2) x) ->
  trace_from sh (final sh h1) p = trace_from sh (final sh h2) p.
Proof.
  intros H1 H2 Hd. rewrite <- status_observable in H1, H2.
  apply status_entered_iff in H1 as (E1 & C1 & R1), H2 as (E2 & C2 & R2).
  apply run_same; [|apply final_dur_untimed|apply final_dur_untimed].
  split; [congruence|]. split; [congruence|]. split; [exact Hd|].
  intros x Hx. split; congruence.
Qed.

End WithFirst.
End P.

(* The mode class: __build_states finds exactly the states of the class *)

Lemma assoc_in {A} (c : list (name * A)) n : assoc c n <> None <-> In n (map fst c).
Proof.
  unfold assoc. induction c as [|[k v] c IH]; cbn; [tauto|].
  destruct (Nat.eqb_spec k n) as [E|E]; cbn; [|rewrite IH]; intuition congruence.
Qed.

Lemma class_getattr_dir m n : In n (class_dir m) <-> class_getattr m n <> None.
Proof.
  unfold class_dir. rewrite nodup_In. induction m as [|c r IH]; cbn; [tauto|].
  rewrite in_app_iff, <- assoc_in, IH. destruct (assoc c n); intuition congruence.
Qed.

Lemma is_first_is_state m n : is_first m n = true -> is_state m n = true.
Proof. unfold is_first, is_state. destruct (class_getattr m n) as [[d [|]|]|]; auto. Qed.

Definition firsts (m : mro) : list name := filter (is_first m) (class_dir m).

Lemma firsts_in m n : In n (firsts m) <-> is_first m n = true.
Proof.
  unfold firsts. rewrite filter_In. split; [tauto|]. intros H. split; [|exact H].
  apply class_getattr_dir. unfold is_first in H.
  destruct (class_getattr m n); [discriminate|discriminate H].
Qed.

(* the constructor's three verdicts, as facts about the class *)
Lemma firsts_cases m :
  match firsts m with
  | [] => forall n, is_first m n = false
  | [f] => is_first m f = true /\ forall n, is_first m n = true -> n = f
  | a :: b :: _ => a <> b /\ is_first m a = true /\ is_first m b = true
  end.
Proof.
  pose proof (firsts_in m) as I.
  assert (N : NoDup (firsts m)) by apply NoDup_filter, NoDup_nodup.
  destruct (firsts m) as [|a [|b r]].
  - intros n. destruct (is_first m n) eqn:E; [|reflexivity]. apply I in E as [].
  - split; [apply I; left; reflexivity|]. intros n Hn. apply I in Hn as [<-|[]]. reflexivity.
  - split; [|split; apply I; cbn; auto].
    intros ->. inversion N as [|? ? X]. apply X. left. reflexivity.
Qed.

(* the states among [names] with what the decorator stored, in the order of [names] *)
Definition decls (m : mro) (names : list name) : list (name * sdecl) :=
  flat_map (fun n => match state_decl (class_getattr m n) with Some d => [(n, d)] | None => [] end) names.

Lemma decls_assoc m names n :
  assoc (decls m names) n = if existsb (Nat.eqb n) names then state_decl (class_getattr m n) else None.
Proof.
  induction names as [|k r IH]; [reflexivity|]. cbn [decls flat_map existsb]. fold (decls m r).
  rewrite (Nat.eqb_sym n k). unfold assoc in *.
  destruct (Nat.eqb_spec k n) as [<-|N].
  - (* the name asked for *)
    destruct (state_decl (class_getattr m k)) as [d|] eqn:E; cbn.
    + (* a state: found at the head *) rewrite Nat.eqb_refl. reflexivity.
    + (* not a state: nor is it one further on *)
      rewrite IH. destruct (existsb (Nat.eqb k) r); reflexivity.
  - (* another name *)
    destruct (state_decl (class_getattr m k)) as [d|]; cbn.
    + (* a state: passed over *) rewrite (proj2 (Nat.eqb_neq k n) N). exact IH.
    + (* not a state *) exact IH.
Qed.

Lemma decls_dir m n : assoc (decls m (class_dir m)) n = state_decl (class_getattr m n).
Proof.
  rewrite decls_assoc. destruct (existsb (Nat.eqb n) (class_dir m)) eqn:X; [reflexivity|].
  destruct (class_getattr m n) eqn:G; [exfalso|reflexivity].
  apply Bool.not_true_iff_false in X. apply X, existsb_exists. exists n.
  split; [apply class_getattr_dir; congruence|apply Nat.eqb_refl].
Qed.

Lemma is_first_eq m n :
  is_first m n = match class_getattr m n with Some (AState _ f) => f | _ => false end.
Proof. unfold is_first. destruct (class_getattr m n) as [[d [|]|]|]; reflexivity. Qed.

Definition onat (o : option name) : nat := match o with Some _ => 1%nat | None => 0%nat end.

(* the loop of __build_states; [first] counts as one more first state already seen *)
Lemma build_loop_eq m names : forall first,
  build_loop m names first =
  if (onat first + length (filter (is_first m) names) <=? 1)%nat
  then inr (decls m names, match filter (is_first m) names with [] => first | f :: _ => Some f end)
  else inl MultipleFirst.
Proof.
  induction names as [|k r IH]; intros first.
  - (* no name left *) destruct first; reflexivity.
  - cbn [build_loop filter decls flat_map]. fold (decls m r). rewrite (is_first_eq m k).
    destruct (class_getattr m k) as [[d [|]|]|]; cbn [state_decl app].
    + (* a first state *)
      destruct first as [x|].
      * (* one was seen already *) reflexivity.
      * (* none was seen: the rest decides, with this one counted *)
        rewrite IH. destruct (filter (is_first m) r) as [|g F]; reflexivity.
    + (* a state that is not first: the verdict of the rest, the state added *)
      rewrite IH. destruct (onat first + length (filter (is_first m) r) <=? 1)%nat; reflexivity.
    + (* not a state *) apply IH.
    + (* no such attribute *) apply IH.
Qed.

(* the constructor's verdict is decided by how many first states the class has *)
Lemma build_states_firsts inf m :
  build_states inf m =
  match firsts m with
  | [] => inl NoFirst
  | [f] => inr {| sh_states := decls m (class_dir m); sh_first := f; sh_inf := inf |}
  | _ => inl MultipleFirst
  end.
Proof.
  unfold build_states, firsts. rewrite build_loop_eq.
  destruct (filter (is_first m) (class_dir m)) as [|a [|b r]]; reflexivity.
Qed.

Theorem build_states_ok inf m sh : build_states inf m = inr sh ->
  (forall n, lookup sh n = state_decl (class_getattr m n)) /\
  is_first m (sh_first sh) = true /\
  (forall n, is_first m n = true -> n = sh_first sh) /\
  declared sh (sh_first sh) = true /\
  sh_inf sh = inf.
Proof.
  rewrite build_states_firsts. pose proof (firsts_cases m) as C.
  destruct (firsts m) as [|f [|g r]]; try discriminate. intros [= <-]. destruct C as [If U].
  split; [exact (decls_dir m)|]. split; [exact If|]. split; [exact U|]. split; [|reflexivity].
  unfold declared. change (lookup _ _) with (assoc (decls m (class_dir m)) f).
  rewrite decls_dir. exact (is_first_is_state _ _ If).
Qed.

Theorem build_states_constructs inf m :
  (exists sh, build_states inf m = inr sh) <->
  (exists f, is_first m f = true /\ forall n, is_first m n = true -> n = f).
Proof.
  split.
  - intros [sh H]. apply build_states_ok in H as (_ & H1 & H2 & _). eauto.
  - intros (f & Hf & Hu). rewrite build_states_firsts. pose proof (firsts_cases m) as C.
    destruct (firsts m) as [|a [|b r]].
    + rewrite C in Hf. discriminate.
    + eauto.
    + destruct C as (N & Ha & Hb). destruct N. rewrite (Hu a Ha), (Hu b Hb). reflexivity.
Qed.

Theorem build_states_no_first inf m :
  build_states inf m = inl NoFirst <-> forall n, is_first m n = false.
Proof.
  rewrite build_states_firsts. pose proof (firsts_cases m) as C.
  destruct (firsts m) as [|a [|b r]].
  - split; [intros _; exact C|reflexivity].
  - split; [discriminate|]. intros H. rewrite H in C. destruct C. discriminate.
  - split; [discriminate|]. intros H. rewrite H in C. destruct C as (_ & C & _). discriminate.
Qed.

Theorem build_states_multiple_first inf m :
  build_states inf m = inl MultipleFirst <->
  exists a b, a <> b /\ is_first m a = true /\ is_first m b = true.
Proof.
  rewrite build_states_firsts. pose proof (firsts_cases m) as C.
  destruct (firsts m) as [|a [|b r]].
  - split; [discriminate|]. intros (a & _ & _ & Ha & _). rewrite C in Ha. discriminate.
  - split; [discriminate|]. intros (x & y & Hxy & Hx & Hy). destruct C as [_ U].
    destruct Hxy. rewrite (U x Hx), (U y Hy). reflexivity.
  - split; [|reflexivity]. intros _. exists a, b. exact C.
Qed.

Lemma mode_duration_eq inf m sh d s : build_states inf m = inr sh ->
  period_duration sh d s = mode_duration inf m d s.
Proof.
  intros H. apply build_states_ok in H as (Hlk & _ & _ & _ & Hinf).
  unfold period_duration, mode_duration. rewrite Hlk, Hinf.
  destruct (class_getattr m s) as [[[dflt nx|] f|]|]; reflexivity.
Qed.

(* the clauses of the property stated on the CLASS: hypotheses about a state
   read its definition through getattr on the class, wherever in the MRO it is *)
Section Mode.
Variable inf : Z.
Variable m : mro.
Variable sh : shape.
Hypothesis Hb : build_states inf m = inr sh.

Lemma mode_lookup n : lookup sh n = state_decl (class_getattr m n).
Proof. apply (build_states_ok _ _ _ Hb). Qed.

Lemma mode_first_declared : declared sh (sh_first sh) = true.
Proof. apply (build_states_ok _ _ _ Hb). Qed.

Lemma mode_declared n : declared sh n = is_state m n.
Proof. unfold declared, is_state. rewrite mode_lookup. reflexivity. Qed.

Lemma mode_lookup_state s d f : class_getattr m s = Some (AState d f) -> lookup sh s = Some d.
Proof. intros H. rewrite mode_lookup, H. reflexivity. Qed.

Theorem mode_first_runs h d tm b :
  is_first m (sh_first sh) = true /\
  calls (iter_after sh (h ++ [OnEnable d]) tm b) = [EvCall (sh_first sh) tm 0 true].
Proof.
  split; [apply (build_states_ok _ _ _ Hb)|apply (first_runs sh mode_first_declared)].
Qed.

Theorem mode_holds_until_expiry h s st0 d tm b :
  status_tr (trace sh h) = Running s ->
  last_call_start (trace sh h) None = Some (s, st0) ->
  last_dash h None = Some d ->
  tm <= st0 + mode_duration inf m d s ->
  calls (iter_after sh h tm b) = [EvCall s tm (tm - st0) false] /\
  status_tr (trace sh (h ++ [OnIteration tm b])) =
    status_acts sh (b s tm (tm - st0) false) (Running s).
Proof.
  rewrite <- (mode_duration_eq _ _ _ _ _ Hb). apply (holds_until_expiry sh mode_first_declared).
Qed.

Theorem mode_hands_over_at_expiry h s st0 d tm b dflt n f :
  status_tr (trace sh h) = Running s ->
  last_call_start (trace sh h) None = Some (s, st0) ->
  last_dash h None = Some d ->
  st0 + mode_duration inf m d s < tm ->
  class_getattr m s = Some (AState (Timed dflt (Some n)) f) -> is_state m n = true ->
  let expiry := st0 + mode_duration inf m d s in
  exists rest,
    iter_after sh h tm b = EvEnter (Some n) :: EvCall n tm (tm - expiry) true :: rest /\
    calls rest = [] /\
    status_tr (trace sh (h ++ [OnIteration tm b])) =
      status_acts sh (b n tm (tm - expiry) true) (Running n) /\
    last_call_start (trace sh (h ++ [OnIteration tm b])) None = Some (n, expiry).
Proof.
  rewrite <- (mode_duration_eq _ _ _ _ _ Hb), <- mode_declared. intros H1 H2 H3 H4 H5 H6.
  apply mode_lookup_state in H5.
  destruct (hands_over_at_expiry sh mode_first_declared h s st0 d tm b dflt n H1 H2 H3 H4 H5 H6)
    as (rest & Ha & Hc & Hd).
  exists rest. repeat split; try assumption.
  apply (successor_clock sh mode_first_declared h s st0 d tm b dflt n H1 H2 H3 H4 H5 H6).
Qed.

Theorem mode_last_state_expires h s st0 d tm b dflt f :
  status_tr (trace sh h) = Running s ->
  last_call_start (trace sh h) None = Some (s, st0) ->
  last_dash h None = Some d ->
  st0 + mode_duration inf m d s < tm ->
  class_getattr m s = Some (AState (Timed dflt None) f) ->
  iter_after sh h tm b = [EvEnter None] /\
  status_tr (trace sh (h ++ [OnIteration tm b])) = Ended.
Proof.
  rewrite <- (mode_duration_eq _ _ _ _ _ Hb). intros H1 H2 H3 H4 H5%mode_lookup_state.
  exact (last_state_expires sh mode_first_declared h s st0 d tm b dflt H1 H2 H3 H4 H5).
Qed.

End Mode.
