(* Proofs about Units/Model.v.  A chain of links acts as one link, the
   composition of its members ([chain_link]), and being proper, inverse or
   linear is kept by composition ([chain_link_closed]): so what is asked of
   the user-defined links one by one holds of convert() on chains of any
   depth, through [on_units] of tables of units, and of any regenerated table
   that passes the decidable check [units_ok].  On these rest the sonar and
   pressure formulas and one pressure sensor object over any sequence of
   calls; last, units whose callables call convert() themselves, and the log
   of their applications. *)
From Coq Require Import QArith Qfield Lqa Lia List Bool Morphisms Setoid.
From RV Require Import Units.Model.
Import ListNotations.
Open Scope Q_scope.

(* the callables are functions of the VALUE of their argument (Q represents
   one number by many fractions; every Python callable on exact numbers is
   proper in this sense) *)
Definition link_proper (l : link) : Prop :=
  Proper (Qeq ==> Qeq) (to_base l) /\ Proper (Qeq ==> Qeq) (from_base l).

Definition link_inverse (l : link) : Prop :=
  link_proper l /\
  (forall x, from_base l (to_base l x) == x) /\
  (forall x, to_base l (from_base l x) == x).

Definition link_linear (l : link) : Prop :=
  link_proper l /\
  (forall x y, to_base l (x + y) == to_base l x + to_base l y) /\
  (forall c x, to_base l (c * x) == c * to_base l x) /\
  (forall x y, from_base l (x + y) == from_base l x + from_base l y) /\
  (forall c x, from_base l (c * x) == c * from_base l x).

Definition link_scaling (l : link) : Prop :=
  exists k, ~ k == 0 /\ (forall x, to_base l x == k * x) /\ (forall x, from_base l x == x / k).

Lemma scaling_proper l : link_scaling l -> link_proper l.
Proof.
  intros (k & Hk & Ht & Hf). split; intros x y E.
  - rewrite (Ht x), (Ht y), E. reflexivity.
  - rewrite (Hf x), (Hf y), E. reflexivity.
Qed.

Lemma scaling_inverse l : link_scaling l -> link_inverse l.
Proof.
  intros H. split; [exact (scaling_proper l H)|].
  destruct H as (k & Hk & Ht & Hf). split; intro x.
  - rewrite Hf, Ht. field. exact Hk.
  - rewrite Ht, Hf. field. exact Hk.
Qed.

Lemma scaling_linear l : link_scaling l -> link_linear l.
Proof.
  intros H. split; [exact (scaling_proper l H)|].
  destruct H as (k & Hk & Ht & Hf). repeat split; intros.
  - rewrite !Ht. ring.
  - rewrite !Ht. ring.
  - rewrite !Hf. field. exact Hk.
  - rewrite !Hf. field. exact Hk.
Qed.

Lemma scale_link_scaling k : ~ k == 0 -> link_scaling (scale_link k).
Proof. intros Hk. exists k. repeat split; try exact Hk; intros; reflexivity. Qed.

Lemma lin_link_proper kt kf : link_proper (lin_link kt kf).
Proof. split; intros x y E; simpl; rewrite E; reflexivity. Qed.

Lemma lin_link_scaling kt kf : kt * kf == 1 -> link_scaling (lin_link kt kf).
Proof.
  intros H. assert (Hk : ~ kt == 0).
  { intro E. rewrite E in H. revert H. rewrite Qmult_0_l. discriminate. }
  exists kt. split; [exact Hk|]. split; intros x; simpl; [ring|].
  (* kf = kt * kf / kt = 1 / kt *)
  setoid_replace kf with (kt * kf * / kt) by (field; exact Hk).
  rewrite H. field. exact Hk.
Qed.

Lemma affine_link_proper a b : link_proper (affine_link a b).
Proof. split; intros x y E; simpl; rewrite E; reflexivity. Qed.

Lemma affine_link_inverse a b : ~ a == 0 -> link_inverse (affine_link a b).
Proof.
  intros Ha. split; [exact (affine_link_proper a b)|].
  split; intro x; simpl; field; exact Ha.
Qed.

(* for any a: division in Q is total, x / 0 = 0 *)
Lemma affine_link_linear a b : b == 0 -> link_linear (affine_link a b).
Proof.
  intros Hb. split; [exact (affine_link_proper a b)|].
  repeat split; intros; simpl; unfold Qdiv; ring [Hb].
Qed.

Lemma fold_up_cons {L V} (up : L -> V -> V) l ch v :
  fold_up up (l :: ch) v = fold_up up ch (up l v).
Proof. reflexivity. Qed.

Lemma unfold_down_cons {L V} (down : L -> V -> V) l ch v :
  unfold_down down (l :: ch) v = down l (unfold_down down ch v).
Proof. unfold unfold_down. simpl. rewrite fold_left_app. reflexivity. Qed.

Lemma unfold_down_nil {L V} (down : L -> V -> V) v : unfold_down down [] v = v.
Proof. reflexivity. Qed.

(* a map [h] of values that commutes with every callable commutes with convert() *)
Lemma convert_with_hom {L L' V W} (h : V -> W) (up down : L -> V -> V) (up' down' : L' -> W -> W)
    src src' dst dst' :
  Forall2 (fun l l' => forall v, h (up l v) = up' l' (h v)) src src' ->
  Forall2 (fun l l' => forall v, h (down l v) = down' l' (h v)) dst dst' ->
  forall v, h (convert_with up down src dst v) = convert_with up' down' src' dst' (h v).
Proof.
  intros Hs Hd v. unfold convert_with.
  transitivity (unfold_down down' dst' (h (fold_up up src v))).
  - generalize (fold_up up src v) as w.
    induction Hd as [|l l' r r' Hl _ IH]; intro w; [reflexivity|].
    rewrite !unfold_down_cons, Hl, IH. reflexivity.
  - f_equal. revert v. induction Hs as [|l l' r r' Hl _ IH]; intro v; [reflexivity|].
    rewrite !fold_up_cons, IH, Hl. reflexivity.
Qed.

Lemma Forall2_maps {A B C} (R : B -> C -> Prop) (f : A -> B) (g : A -> C) l :
  Forall (fun a => R (f a) (g a)) l -> Forall2 R (map f l) (map g l).
Proof. induction 1 as [|a r Ha _ IH]; cbn [map]; constructor; assumption. Qed.

Lemma Forall2_map_r {A C} (R : A -> C -> Prop) (g : A -> C) l :
  Forall (fun a => R a (g a)) l -> Forall2 R l (map g l).
Proof. induction 1 as [|a r Ha _ IH]; cbn [map]; constructor; assumption. Qed.

Lemma fold_app_concat {A} (ls : list (list A)) : forall w,
  fold_left (fun acc lg => acc ++ lg) ls w = w ++ concat ls.
Proof.
  induction ls as [|l r IH]; intro w; cbn [fold_left concat]; [symmetry; apply app_nil_r|].
  rewrite IH, app_assoc. reflexivity.
Qed.

(* the unit's own callables innermost on the way up and outermost on the way
   down *)
Definition id_link : link := {| to_base := fun x => x; from_base := fun x => x |}.
Definition comp_link (l m : link) : link :=
  {| to_base := fun x => to_base m (to_base l x);
     from_base := fun y => from_base l (from_base m y) |}.
Definition chain_link (ch : list link) : link := fold_right comp_link id_link ch.

Lemma fold_up_chain_link ch : forall v, fold_up to_base ch v = to_base (chain_link ch) v.
Proof. induction ch as [|l r IH]; intro v; [reflexivity|]. rewrite fold_up_cons. apply IH. Qed.

Lemma unfold_down_chain_link ch : forall v,
  unfold_down from_base ch v = from_base (chain_link ch) v.
Proof.
  induction ch as [|l r IH]; intro v; [reflexivity|]. rewrite unfold_down_cons, IH. reflexivity.
Qed.

Lemma convert_chain_link a b x :
  convert a b x = from_base (chain_link b) (to_base (chain_link a) x).
Proof. unfold convert, convert_with. rewrite fold_up_chain_link. apply unfold_down_chain_link. Qed.

Definition comp_closed (P : link -> Prop) : Prop :=
  P id_link /\ forall l m, P l -> P m -> P (comp_link l m).

Lemma chain_link_closed P ch : comp_closed P -> Forall P ch -> P (chain_link ch).
Proof.
  intros (Hid & Hcomp). induction 1 as [|l r Hl _ IH]; cbn [chain_link fold_right].
  - exact Hid.
  - exact (Hcomp l (chain_link r) Hl IH).
Qed.

Lemma proper_closed : comp_closed link_proper.
Proof.
  split; [split; intros x y E; exact E|].
  intros l m (Lt & Lf) (Mt & Mf). split; intros x y E; simpl; rewrite E; reflexivity.
Qed.

Lemma inverse_closed : comp_closed link_inverse.
Proof.
  split; [split; [apply proper_closed|split; reflexivity]|].
  intros l m (Pl & Lft & Ltf) (Pm & Mft & Mtf).
  split; [exact (proj2 proper_closed l m Pl Pm)|].
  destruct Pl as (_ & Lf), Pm as (Mt & _). split; intro x; cbn [comp_link to_base from_base].
  - transitivity (from_base l (to_base l x)); [apply Lf, Mft | apply Lft].
  - transitivity (to_base m (from_base m x)); [apply Mt, Ltf | apply Mtf].
Qed.

Lemma linear_closed : comp_closed link_linear.
Proof.
  split; [split; [apply proper_closed|repeat split; reflexivity]|].
  intros l m (Pl & Lta & Lts & Lfa & Lfs) (Pm & Mta & Mts & Mfa & Mfs).
  split; [exact (proj2 proper_closed l m Pl Pm)|].
  destruct Pl as (_ & Lf), Pm as (Mt & _).
  split; [|split; [|split]]; cbn [comp_link to_base from_base].
  - intros x y. transitivity (to_base m (to_base l x + to_base l y)); [apply Mt, Lta | apply Mta].
  - intros c x. transitivity (to_base m (c * to_base l x)); [apply Mt, Lts | apply Mts].
  - intros x y. transitivity (from_base l (from_base m x + from_base m y)); [apply Lf, Mfa | apply Lfa].
  - intros c x. transitivity (from_base l (c * from_base m x)); [apply Lf, Mfs | apply Lfs].
Qed.

Lemma inverse_proper_all ch : Forall link_inverse ch -> Forall link_proper ch.
Proof. apply Forall_impl. intros l Hl. exact (proj1 Hl). Qed.
Lemma linear_proper_all ch : Forall link_linear ch -> Forall link_proper ch.
Proof. apply Forall_impl. intros l Hl. exact (proj1 Hl). Qed.

Theorem same_unit : forall u x, Forall link_inverse u -> convert u u x == x.
Proof.
  intros u x H. rewrite convert_chain_link.
  destruct (chain_link_closed _ u inverse_closed H) as (_ & Hft & _). apply Hft.
Qed.

Theorem composition : forall a b c x,
  Forall link_inverse b -> Forall link_proper c ->
  convert b c (convert a b x) == convert a c x.
Proof.
  intros a b c x Hb Hc. rewrite !convert_chain_link.
  destruct (chain_link_closed _ c proper_closed Hc) as (_ & Pc).
  destruct (chain_link_closed _ b inverse_closed Hb) as (_ & _ & Htf).
  (* down the chain c respects ==, and up b after down b is the identity *)
  apply Pc, Htf.
Qed.

Theorem there_and_back : forall a b x,
  Forall link_inverse a -> Forall link_inverse b ->
  convert b a (convert a b x) == x.
Proof.
  intros a b x Ha Hb. rewrite (composition a b a x Hb (inverse_proper_all a Ha)).
  exact (same_unit a x Ha).
Qed.

Theorem convert_proper : forall a b x y,
  Forall link_proper a -> Forall link_proper b -> x == y ->
  convert a b x == convert a b y.
Proof.
  intros a b x y Ha Hb E. rewrite !convert_chain_link.
  destruct (chain_link_closed _ a proper_closed Ha) as (Pa & _).
  destruct (chain_link_closed _ b proper_closed Hb) as (_ & Pb).
  apply Pb, Pa, E.
Qed.

Theorem linear : forall a b,
  Forall link_linear a -> Forall link_linear b ->
  (forall x y, convert a b (x + y) == convert a b x + convert a b y) /\
  (forall c x, convert a b (c * x) == c * convert a b x).
Proof.
  intros a b Ha Hb.
  destruct (chain_link_closed _ a linear_closed Ha) as (_ & Hta & Hts & _).
  destruct (chain_link_closed _ b linear_closed Hb) as ((_ & Pb) & _ & _ & Hfa & Hfs).
  split.
  - intros x y. rewrite !convert_chain_link.
    transitivity (from_base (chain_link b) (to_base (chain_link a) x + to_base (chain_link a) y));
      [apply Pb, Hta | apply Hfa].
  - intros c x. rewrite !convert_chain_link.
    transitivity (from_base (chain_link b) (c * to_base (chain_link a) x)); [apply Pb, Hts | apply Hfs].
Qed.

(* R holds of the payload of every unit that has a base unit (the callables
   of a root are never applied) *)
Definition on_units {P} (R : P -> Prop) (tbl : list (option nat * P)) : Prop :=
  Forall (fun e => fst e <> None -> R (snd e)) tbl.

Lemma on_units_impl {P} (R R' : P -> Prop) tbl :
  (forall pl, R pl -> R' pl) -> on_units R tbl -> on_units R' tbl.
Proof. intro H. apply Forall_impl. intros e He Hp. exact (H _ (He Hp)). Qed.

Lemma chain_entries {P} {R : P -> Prop} {tbl u ch} :
  on_units R tbl -> chain_of tbl u = Val ch -> Forall R (map snd ch).
Proof.
  intros HT. unfold chain_of. generalize (S (length tbl)) as fuel. intro fuel. revert u ch.
  induction fuel as [|f IH]; intros u ch H; [discriminate|].
  simpl in H. destruct (nth_error tbl u) as [[[p|] pl]|] eqn:E; try discriminate.
  - destruct (chain tbl f p) as [r| |] eqn:Ec; try discriminate.
    injection H as <-. simpl. constructor; [|exact (IH p r Ec)].
    apply nth_error_In in E. unfold on_units in HT. rewrite Forall_forall in HT.
    apply (HT _ E). discriminate.
  - injection H as <-. constructor.
Qed.

Lemma chain_of_map {P R} (f : P -> R) (tbl : list (option nat * P)) u :
  chain_of (map (fun e => (fst e, f (snd e))) tbl) u =
  match chain_of tbl u with
  | Val ch => Val (map (fun e => (fst e, f (snd e))) ch)
  | Raise e => Raise e
  | Loops => Loops
  end.
Proof.
  unfold chain_of. rewrite map_length. generalize (S (length tbl)) as fuel.
  intro fuel. revert u. induction fuel as [|n IH]; intro u; [reflexivity|].
  simpl. rewrite nth_error_map.
  destruct (nth_error tbl u) as [[[p|] pl]|]; simpl; try reflexivity.
  rewrite IH. destruct (chain tbl n p); reflexivity.
Qed.

(* [on_units link_inverse] and [on_units link_linear] written out, as the
   statements about tables have them; the proofs pass one for the other, the
   two being convertible *)
Definition table_links_inverse (tbl : list (option nat * link)) : Prop :=
  Forall (fun e => fst e <> None -> link_inverse (snd e)) tbl.
Definition table_links_linear (tbl : list (option nat * link)) : Prop :=
  Forall (fun e => fst e <> None -> link_linear (snd e)) tbl.

Lemma convert_tbl_val {R : link -> Prop} {tbl a b x y} :
  on_units R tbl -> convert_tbl tbl a b x = Val y ->
  exists ca cb, chain_of tbl a = Val ca /\ chain_of tbl b = Val cb /\
                Forall R (map snd ca) /\ Forall R (map snd cb) /\
                y = convert (map snd ca) (map snd cb) x.
Proof.
  intro HT. unfold convert_tbl.
  destruct (chain_of tbl a) as [ca| |] eqn:Ea; try discriminate.
  destruct (chain_of tbl b) as [cb| |] eqn:Eb; try discriminate.
  intro H. injection H as <-. exists ca, cb.
  repeat split; [exact (chain_entries HT Ea)|exact (chain_entries HT Eb)].
Qed.

Lemma convert_tbl_of_chains tbl a b x ca cb :
  chain_of tbl a = Val ca -> chain_of tbl b = Val cb ->
  convert_tbl tbl a b x = Val (convert (map snd ca) (map snd cb) x).
Proof. intros Ha Hb. unfold convert_tbl. rewrite Ha, Hb. reflexivity. Qed.

(* termination depends on the two units only, never on the value *)
Lemma convert_tbl_terminates tbl a b x y x' :
  convert_tbl tbl a b x = Val y -> exists y', convert_tbl tbl a b x' = Val y'.
Proof.
  unfold convert_tbl. destruct (chain_of tbl a); try discriminate.
  destruct (chain_of tbl b); try discriminate. intros _. eexists. reflexivity.
Qed.

Theorem tbl_same_unit : forall tbl u x y,
  table_links_inverse tbl -> convert_tbl tbl u u x = Val y -> y == x.
Proof.
  intros tbl u x y HT H.
  destruct (convert_tbl_val HT H) as (ca & cb & Ha & Hb & Ia & _ & ->).
  rewrite Ha in Hb. injection Hb as <-. apply same_unit. exact Ia.
Qed.

Theorem tbl_there_and_back : forall tbl a b x y,
  table_links_inverse tbl -> convert_tbl tbl a b x = Val y ->
  exists z, convert_tbl tbl b a y = Val z /\ z == x.
Proof.
  intros tbl a b x y HT H.
  destruct (convert_tbl_val HT H) as (ca & cb & Ha & Hb & Ia & Ib & ->).
  eexists. split; [apply convert_tbl_of_chains; eassumption|].
  apply there_and_back; assumption.
Qed.

Theorem tbl_composition : forall tbl a b c x y z,
  table_links_inverse tbl ->
  convert_tbl tbl a b x = Val y -> convert_tbl tbl b c y = Val z ->
  exists w, convert_tbl tbl a c x = Val w /\ z == w.
Proof.
  intros tbl a b c x y z HT H1 H2.
  destruct (convert_tbl_val HT H1) as (ca & cb & Ha & Hb & _ & Ib & ->).
  destruct (convert_tbl_val HT H2) as (cb' & cc & Hb' & Hc & _ & Ic & ->).
  rewrite Hb in Hb'. injection Hb' as <-.
  eexists. split; [apply convert_tbl_of_chains; eassumption|].
  apply composition; [exact Ib|]. apply inverse_proper_all. exact Ic.
Qed.

Theorem tbl_linear : forall tbl a b x1 x2 c y1 y2,
  table_links_linear tbl ->
  convert_tbl tbl a b x1 = Val y1 -> convert_tbl tbl a b x2 = Val y2 ->
  (exists s, convert_tbl tbl a b (x1 + x2) = Val s /\ s == y1 + y2) /\
  (exists m, convert_tbl tbl a b (c * x1) = Val m /\ m == c * y1).
Proof.
  intros tbl a b x1 x2 c y1 y2 HT H1 H2.
  destruct (convert_tbl_val HT H1) as (ca & cb & Ha & Hb & La & Lb & ->).
  rewrite (convert_tbl_of_chains tbl a b x2 ca cb Ha Hb) in H2. injection H2 as <-.
  destruct (linear _ _ La Lb) as (Hadd & Hsc).
  split; eexists; (split; [apply convert_tbl_of_chains; eassumption|]).
  - apply Hadd.
  - apply Hsc.
Qed.

Theorem trace_tbl_shape {P} (tbl : list (option nat * P)) a b ca cb :
  chain_of tbl a = Val ca -> chain_of tbl b = Val cb ->
  trace_tbl tbl a b =
  Val (map (fun u => (u, true)) (map fst ca) ++ map (fun u => (u, false)) (rev (map fst cb))).
Proof.
  intros Ha Hb. unfold trace_tbl. rewrite Ha, Hb. f_equal.
  assert (A : forall (dir : bool) (ch : list nat) log,
            fold_left (fun acc u => acc ++ [(u, dir)]) ch log = log ++ map (fun u => (u, dir)) ch).
  { induction ch as [|u r IH]; intro log; simpl; [symmetry; apply app_nil_r|].
    rewrite IH, <- app_assoc. reflexivity. }
  unfold convert_with, unfold_down, fold_up, log_up, log_down. rewrite !A. reflexivity.
Qed.

(* an entry of [link_table], and the links of a chain of such entries *)
Definition lin_entry {A} (e : A * (Q * Q)) : A * link :=
  (fst e, lin_link (fst (snd e)) (snd (snd e))).
Definition lins (ch : list (nat * (Q * Q))) : list link := map snd (map lin_entry ch).

Lemma lins_cons e r : lins (e :: r) = lin_link (fst (snd e)) (snd (snd e)) :: lins r.
Proof. reflexivity. Qed.

Lemma lchain_factor_from ch : forall x,
  fold_left (fun acc (e : nat * (Q * Q)) => acc * fst (snd e)) ch x == x * lchain_factor ch.
Proof.
  unfold lchain_factor. induction ch as [|e r IH]; intro x; simpl; [ring|].
  rewrite (IH (x * _)), (IH (1 * _)). ring.
Qed.

Lemma lchain_factor_cons e r :
  lchain_factor (e :: r) == fst (snd e) * lchain_factor r.
Proof. unfold lchain_factor at 1. cbn [fold_left]. rewrite lchain_factor_from. ring. Qed.

Lemma up_lins ch : forall x, to_base (chain_link (lins ch)) x == x * lchain_factor ch.
Proof.
  induction ch as [|e r IH]; intro x.
  - unfold lchain_factor. simpl. ring.
  - rewrite lins_cons, lchain_factor_cons. simpl. rewrite IH. ring.
Qed.

Lemma lchain_inverse_scaling ch : lchain_inverse ch = true -> Forall link_scaling (lins ch).
Proof.
  induction ch as [|e r IH]; intro H; [constructor|].
  simpl in H. apply andb_true_iff in H. destruct H as (He & Hr).
  rewrite lins_cons. constructor; [|exact (IH Hr)].
  apply lin_link_scaling. apply Qeq_bool_iff. exact He.
Qed.

(* down the chain undoes up the chain, which multiplies by the factor *)
Lemma down_lins ch : lchain_inverse ch = true ->
  forall y, from_base (chain_link (lins ch)) y * lchain_factor ch == y.
Proof.
  intros H y. rewrite <- up_lins.
  destruct (chain_link_closed link_inverse (lins ch) inverse_closed) as (_ & _ & Htf); [|apply Htf].
  exact (Forall_impl _ scaling_inverse (lchain_inverse_scaling ch H)).
Qed.

Lemma convert_lins ca cb x : lchain_inverse cb = true ->
  convert (lins ca) (lins cb) x * lchain_factor cb == x * lchain_factor ca.
Proof. intro H. rewrite convert_chain_link, <- (up_lins ca x). apply down_lins. exact H. Qed.

Lemma metres_per_nonzero u : In u builtin_units -> ~ metres_per u == 0.
Proof.
  intros [<-|[<-|[<-|[<-|[]]]]]; vm_compute; discriminate.
Qed.

Lemma in_builtin_meter : In u_meter builtin_units. Proof. simpl; auto. Qed.
Lemma in_builtin_centimeter : In u_centimeter builtin_units. Proof. simpl; auto. Qed.
Lemma in_builtin_foot : In u_foot builtin_units. Proof. simpl; auto. Qed.
Lemma in_builtin_inch : In u_inch builtin_units. Proof. simpl; auto. Qed.

Lemma unit_ok_chain T u : units_ok T = true -> In u builtin_units ->
  exists ch, chain_of (link_table T) u = Val (map lin_entry ch) /\
             lchain_inverse ch = true /\ lchain_factor ch == metres_per u.
Proof.
  intros HT Iu. unfold units_ok in HT. rewrite forallb_forall in HT.
  specialize (HT u Iu). unfold unit_ok in HT.
  destruct (chain_of T u) as [ch| |] eqn:E; try discriminate.
  apply andb_true_iff in HT. destruct HT as (H1 & H2). apply Qeq_bool_iff in H2.
  exists ch. split; [|split; assumption].
  unfold link_table. rewrite (chain_of_map (fun p => lin_link (fst p) (snd p)) T u), E. reflexivity.
Qed.

(* every conversion between built-in units multiplies by the ratio of the
   units' lengths *)
Theorem builtin_factor : forall T a b x,
  units_ok T = true -> In a builtin_units -> In b builtin_units ->
  exists y, convert_tbl (link_table T) a b x = Val y /\
            y == x * metres_per a / metres_per b.
Proof.
  intros T a b x HT Ia Ib.
  destruct (unit_ok_chain T a HT Ia) as (ca & Ha & _ & Fa).
  destruct (unit_ok_chain T b HT Ib) as (cb & Hb & Ib' & Fb).
  eexists. split; [exact (convert_tbl_of_chains _ a b x _ _ Ha Hb)|].
  fold (lins ca). fold (lins cb).
  rewrite <- Fa, <- (convert_lins ca cb x Ib'), Fb.
  symmetry. apply Qdiv_mult_l. exact (metres_per_nonzero b Ib).
Qed.

(* the same with the factor worked out *)
Lemma builtin_value T a b x q :
  units_ok T = true -> In a builtin_units -> In b builtin_units ->
  x * metres_per a / metres_per b == q ->
  exists y, convert_tbl (link_table T) a b x = Val y /\ y == q.
Proof.
  intros HT Ia Ib E. destruct (builtin_factor T a b x HT Ia Ib) as (y & H & Ey).
  exists y. split; [exact H|]. rewrite Ey. exact E.
Qed.

(* and the built-in chains satisfy the hypotheses of the generic theorems *)
Theorem builtin_chains_scaling : forall T u,
  units_ok T = true -> In u builtin_units ->
  exists ch, chain_of (link_table T) u = Val ch /\ Forall link_scaling (map snd ch).
Proof.
  intros T u HT Iu. destruct (unit_ok_chain T u HT Iu) as (ch & Hc & Hi & _).
  eexists. split; [exact Hc|]. apply lchain_inverse_scaling. exact Hi.
Qed.

Lemma table_inverse_links T : table_inverse T = true -> on_units link_scaling (link_table T).
Proof.
  unfold table_inverse, link_table, on_units. rewrite forallb_forall, Forall_forall.
  intros H e He. apply in_map_iff in He. destruct He as (e0 & <- & He0).
  simpl. intro Hp. specialize (H e0 He0).
  destruct (fst e0); [|congruence].
  apply lin_link_scaling. apply Qeq_bool_iff. exact H.
Qed.

Theorem table_inverse_inverse T : table_inverse T = true ->
  table_links_inverse (link_table T).
Proof. intro H. exact (on_units_impl _ _ _ scaling_inverse (table_inverse_links T H)). Qed.

Theorem table_inverse_linear T : table_inverse T = true ->
  table_links_linear (link_table T).
Proof. intro H. exact (on_units_impl _ _ _ scaling_linear (table_inverse_links T H)). Qed.

Theorem constants : forall T, units_ok T = true ->
  (exists y, convert_tbl (link_table T) u_meter u_centimeter 1 = Val y /\ y == 100) /\
  (exists y, convert_tbl (link_table T) u_foot u_meter 1 = Val y /\ y == 3048 # 10000) /\
  (exists y, convert_tbl (link_table T) u_foot u_inch 1 = Val y /\ y == 12).
Proof.
  intros T HT. repeat split.
  - exact (builtin_value T _ _ 1 100 HT in_builtin_meter in_builtin_centimeter eq_refl).
  - exact (builtin_value T _ _ 1 (3048 # 10000) HT in_builtin_foot in_builtin_meter eq_refl).
  - exact (builtin_value T _ _ 1 12 HT in_builtin_foot in_builtin_inch eq_refl).
Qed.

Lemma consts_ok_inv K : consts_ok K = true ->
  c_pw_unit K = u_inch /\ c_pw_div K == us147 /\
  c_an_unit K = u_centimeter /\ c_an_div K == mv4_9 /\
  c_scale K == 250 /\ c_offset K == 25 /\ c_floor K == v_floor /\ c_zero K == 0 /\
  c_cal_floor K == v_floor /\ c_cal_slope K == 4 # 1000 /\ c_cal_off K == 1 # 10.
Proof.
  unfold consts_ok. intro H.
  repeat (apply andb_true_iff in H; destruct H as (H & ?H)).
  repeat split; try (apply Nat.eqb_eq; assumption); apply Qeq_bool_iff; assumption.
Qed.

(* the same, one literal at a time *)
Lemma consts_pw_unit K : consts_ok K = true -> c_pw_unit K = u_inch.
Proof. intro H. apply (consts_ok_inv K H). Qed.
Lemma consts_pw_div K : consts_ok K = true -> c_pw_div K == us147.
Proof. intro H. apply (consts_ok_inv K H). Qed.
Lemma consts_an_unit K : consts_ok K = true -> c_an_unit K = u_centimeter.
Proof. intro H. apply (consts_ok_inv K H). Qed.
Lemma consts_an_div K : consts_ok K = true -> c_an_div K == mv4_9.
Proof. intro H. apply (consts_ok_inv K H). Qed.
Lemma consts_scale K : consts_ok K = true -> c_scale K == 250.
Proof. intro H. apply (consts_ok_inv K H). Qed.
Lemma consts_offset K : consts_ok K = true -> c_offset K == 25.
Proof. intro H. apply (consts_ok_inv K H). Qed.
Lemma consts_floor K : consts_ok K = true -> c_floor K == v_floor.
Proof. intro H. apply (consts_ok_inv K H). Qed.
Lemma consts_zero K : consts_ok K = true -> c_zero K == 0.
Proof. intro H. apply (consts_ok_inv K H). Qed.
Lemma consts_cal_floor K : consts_ok K = true -> c_cal_floor K == v_floor.
Proof. intro H. apply (consts_ok_inv K H). Qed.
Lemma consts_cal_slope K : consts_ok K = true -> c_cal_slope K == 4 # 1000.
Proof. intro H. apply (consts_ok_inv K H). Qed.
Lemma consts_cal_off K : consts_ok K = true -> c_cal_off K == 1 # 10.
Proof. intro H. apply (consts_ok_inv K H). Qed.

Lemma v_floor_pos : 0 < v_floor. Proof. reflexivity. Qed.

Theorem consts_ok_floor_pos K : consts_ok K = true -> 0 < c_floor K /\ 0 < c_cal_floor K.
Proof.
  intro H. rewrite (consts_floor K H), (consts_cal_floor K H). split; exact v_floor_pos.
Qed.

(* Sonar: both drivers return  convert(u, out, reading / d)  for a built-in
   unit u and a divisor d *)

Lemma reading_scale T u d d0 out r :
  units_ok T = true -> In u builtin_units -> In out builtin_units -> d == d0 ->
  exists y, convert_tbl (link_table T) u out (r / d) = Val y /\
            y == (r / d0) * metres_per u / metres_per out.
Proof.
  intros HT Iu Io Hd. apply (builtin_value T u out _ _ HT Iu Io). rewrite Hd. reflexivity.
Qed.

Lemma reading_native T u d d0 r :
  units_ok T = true -> In u builtin_units -> d == d0 ->
  exists y, convert_tbl (link_table T) u u (r / d) = Val y /\ y == r / d0.
Proof.
  intros HT Iu Hd. apply (builtin_value T u u _ _ HT Iu Iu). rewrite Hd.
  apply Qdiv_mult_l. exact (metres_per_nonzero u Iu).
Qed.

Theorem sonar_scale : forall T K out r,
  units_ok T = true -> consts_ok K = true -> In out builtin_units ->
  (exists y, sonar_pw K (link_table T) out r = Val y /\
             y == (r / us147) * metres_per u_inch / metres_per out) /\
  (exists y, sonar_an K (link_table T) out r = Val y /\
             y == (r / mv4_9) * metres_per u_centimeter / metres_per out).
Proof.
  intros T K out r HT HK Io.
  unfold sonar_pw, sonar_an. rewrite (consts_pw_unit K HK), (consts_an_unit K HK). split.
  - exact (reading_scale T _ _ _ out r HT in_builtin_inch Io (consts_pw_div K HK)).
  - exact (reading_scale T _ _ _ out r HT in_builtin_centimeter Io (consts_an_div K HK)).
Qed.

Theorem sonar_native : forall T K r, units_ok T = true -> consts_ok K = true ->
  (exists y, sonar_pw K (link_table T) u_inch r = Val y /\ y == r / us147) /\
  (exists y, sonar_an K (link_table T) u_centimeter r = Val y /\ y == r / mv4_9).
Proof.
  intros T K r HT HK.
  unfold sonar_pw, sonar_an. rewrite (consts_pw_unit K HK), (consts_an_unit K HK). split.
  - exact (reading_native T _ _ _ r HT in_builtin_inch (consts_pw_div K HK)).
  - exact (reading_native T _ _ _ r HT in_builtin_centimeter (consts_an_div K HK)).
Qed.

Lemma pymax_ge a b : b <= a -> pymax a b = a.
Proof.
  intro H. unfold pymax, Qltb. apply Qle_bool_iff in H. rewrite H. reflexivity.
Qed.

Lemma pymax_lt a b : a < b -> pymax a b = b.
Proof.
  intro H. unfold pymax, Qltb. destruct (Qle_bool b a) eqn:E; [|reflexivity].
  apply Qle_bool_iff in E. exfalso. lra.
Qed.

Lemma pymax_spec a b : b <= a /\ pymax a b = a \/ a < b /\ pymax a b = b.
Proof.
  destruct (Qlt_le_dec a b) as [H|H]; [right|left]; split; try exact H.
  - exact (pymax_lt a b H).
  - exact (pymax_ge a b H).
Qed.

Lemma pymax_le a b : a <= b -> pymax a b == b.
Proof. intro H. destruct (pymax_spec a b) as [(L & ->)|(L & ->)]; lra. Qed.

Lemma pymax_bound a b : b <= pymax a b /\ a <= pymax a b.
Proof. destruct (pymax_spec a b) as [(L & ->)|(L & ->)]; lra. Qed.

(* [consts_ok_inv] gives [c_floor K == v_floor] and [c_cal_floor K == v_floor]
   as values, not as fractions: [pressure_total] and [calibrated_general]
   rewrite with them under [pymax] *)
Global Instance pymax_proper : Proper (Qeq ==> Qeq ==> Qeq) pymax.
Proof.
  intros a a' Ea b b' Eb.
  destruct (pymax_spec a b) as [(L & ->)|(L & ->)], (pymax_spec a' b') as [(L' & ->)|(L' & ->)]; lra.
Qed.

Lemma pymax_floor_pos v : 0 < pymax v v_floor.
Proof. pose proof (pymax_bound v v_floor). pose proof v_floor_pos. lra. Qed.

Lemma pydiv_nonzero a b : ~ b == 0 -> pydiv a b = Val (a / b).
Proof.
  intro H. unfold pydiv. destruct (Qeq_bool b 0) eqn:E; [|reflexivity].
  apply Qeq_bool_iff in E. contradiction.
Qed.

Lemma pydiv_zero a b : b == 0 -> pydiv a b = Raise ZeroDivisionError.
Proof. intro H. unfold pydiv. apply Qeq_bool_iff in H. rewrite H. reflexivity. Qed.

Lemma div_nonzero a b : ~ a == 0 -> ~ b == 0 -> ~ a / b == 0.
Proof.
  intros Ha Hb E. apply Ha.
  setoid_replace a with (a / b * b) by (field; exact Hb). rewrite E. ring.
Qed.

Lemma pressure_nonzero K s v : ~ supply s == 0 ->
  pressure K s v = Val (c_scale K * (pymax v (c_floor K) / supply s) - c_offset K).
Proof. intro H. unfold pressure, pressure_try. rewrite (pydiv_nonzero _ _ H). reflexivity. Qed.

Lemma pressure_zero K s v : supply s == 0 -> pressure K s v = Val (c_zero K).
Proof. intro H. unfold pressure, pressure_try. rewrite (pydiv_zero _ _ H). reflexivity. Qed.

Lemma calibrate_nonzero K s v p : ~ c_cal_slope K * p + c_cal_off K == 0 ->
  calibrate K s v p =
  Val {| voltage_in := voltage_in s;
         vn := Some (pymax v (c_cal_floor K) / (c_cal_slope K * p + c_cal_off K)) |}.
Proof. intro H. unfold calibrate. rewrite (pydiv_nonzero _ _ H). reflexivity. Qed.

(* the `except` branch is taken exactly when the supply voltage is zero *)
Theorem pressure_zero_branch K : forall s v,
  pressure_try K s v = Raise ZeroDivisionError <-> supply s == 0.
Proof.
  intros s v. unfold pressure_try. split.
  - destruct (Qeq_dec (supply s) 0) as [E|E]; [tauto|].
    rewrite (pydiv_nonzero _ _ E). discriminate.
  - intro E. rewrite (pydiv_zero _ _ E). reflexivity.
Qed.

(* calibrate() never touches voltage_in, and leaves Vn assigned *)
Lemma calibrate_result K s v p s' : calibrate K s v p = Val s' ->
  voltage_in s' = voltage_in s /\ exists n, vn s' = Some n.
Proof.
  unfold calibrate. destruct (pydiv _ _) as [n|e|]; try discriminate.
  intro H. injection H as <-. split; [reflexivity|]. exists n. reflexivity.
Qed.

(* the getter depends on the object only through getattr(self, "Vn", self.voltage_in) *)
Lemma pressure_supply K s s' v : supply s = supply s' -> pressure K s v = pressure K s' v.
Proof. intro E. unfold pressure, pressure_try. rewrite E. reflexivity. Qed.

Definition is_read (o : sop) : Prop :=
  match o with OpRead _ => True | OpCalibrate _ _ => False | OpSetSupply _ => False end.

Definition no_calibrate (o : sop) : Prop :=
  match o with OpRead _ => True | OpCalibrate _ _ => False | OpSetSupply _ => True end.

(* what an observation must look like if no read ever raises *)
Definition read_returns (o : sobs) : Prop :=
  match o with ObsRead r => exists y, r = Val y | ObsCalibrate _ => True | ObsSet => True end.

(* the attribute voltage_in after the calls [ops], [vcc] being its value before
   them: the last value assigned to it, if any *)
Fixpoint last_supply (vcc : Q) (ops : list sop) : Q :=
  match ops with
  | [] => vcc
  | OpRead _ :: r => last_supply vcc r
  | OpCalibrate _ _ :: r => last_supply vcc r
  | OpSetSupply x :: r => last_supply x r
  end.

(* the calibration in force after the calls [ops]: the last calibrate(p) with
   p <> -25, as (voltage, p).  calibrate(-25) raises and assigns nothing: -25
   is where the divisor 0.004 p + 0.1 of the documented constants vanishes
   ([cal_divisor], [calibrate_raises]); the number stands here as a literal,
   so what is said of [last_cal] holds under [consts_ok K] only. *)
Fixpoint last_cal_from (acc : option (Q * Q)) (ops : list sop) : option (Q * Q) :=
  match ops with
  | [] => acc
  | OpRead _ :: r => last_cal_from acc r
  | OpSetSupply _ :: r => last_cal_from acc r
  | OpCalibrate v p :: r =>
      last_cal_from (if Qeq_bool p (-25) then acc else Some (v, p)) r
  end.
Definition last_cal (ops : list sop) : option (Q * Q) := last_cal_from None ops.

Lemma last_cal_from_app acc a b :
  last_cal_from acc (a ++ b) = last_cal_from (last_cal_from acc a) b.
Proof.
  revert acc. induction a as [|o a IH]; intro acc; [reflexivity|].
  destruct o; simpl; apply IH.
Qed.

Lemma last_cal_from_no_calibrate acc ops : Forall no_calibrate ops -> last_cal_from acc ops = acc.
Proof. induction 1 as [|o r Ho _ IH]; [reflexivity|]. destruct o; [exact IH|destruct Ho|exact IH]. Qed.

Lemma last_cal_after pre v p mid : ~ p == -25 -> Forall no_calibrate mid ->
  last_cal (pre ++ OpCalibrate v p :: mid) = Some (v, p).
Proof.
  intros Hp Hm. unfold last_cal. rewrite last_cal_from_app. simpl.
  rewrite (last_cal_from_no_calibrate _ mid Hm).
  destruct (Qeq_bool p (-25)) eqn:E; [apply Qeq_bool_iff in E; contradiction|reflexivity].
Qed.

Lemma final_state_cons K s o r :
  final_state K s (o :: r) = final_state K (step_state K s o) r.
Proof. reflexivity. Qed.

Lemma final_state_app K s a b :
  final_state K s (a ++ b) = final_state K (final_state K s a) b.
Proof. unfold final_state. apply fold_left_app. Qed.

Lemma observations_app K s a b :
  observations K s (a ++ b) = observations K s a ++ observations K (final_state K s a) b.
Proof.
  revert s. induction a as [|o a IH]; intro s; [reflexivity|].
  simpl. rewrite IH. reflexivity.
Qed.

(* a read after the calls [ops] that returns y with a property F: how the
   statements about histories are phrased *)
Lemma read_after K s0 ops v (F : Q -> Prop) :
  (exists y, pressure K (final_state K s0 ops) v = Val y /\ F y) ->
  exists obs y, observations K s0 (ops ++ [OpRead v]) = obs ++ [ObsRead (Val y)] /\ F y.
Proof.
  intros (y & Hy & H). exists (observations K s0 ops), y. split; [|exact H].
  rewrite observations_app. simpl. rewrite Hy. reflexivity.
Qed.

Lemma reads_no_calibrate ops : Forall is_read ops -> Forall no_calibrate ops.
Proof. apply Forall_impl. intro o. destruct o; simpl; tauto. Qed.

Lemma last_supply_reads vcc ops : Forall is_read ops -> last_supply vcc ops = vcc.
Proof.
  induction 1 as [|o r Ho _ IH]; [reflexivity|].
  destruct o; [exact IH | destruct Ho | destruct Ho].
Qed.

(* voltage_in is, after ANY calls, the last value assigned to it: neither a
   read nor calibrate() (returning or raising) changes it *)
Theorem final_voltage_in K : forall ops s,
  voltage_in (final_state K s ops) = last_supply (voltage_in s) ops.
Proof.
  induction ops as [|o r IH]; intro s; [reflexivity|].
  rewrite final_state_cons, IH. destruct o as [v|v p|x]; simpl; try reflexivity.
  destruct (calibrate K s v p) as [s'|e|] eqn:E; try reflexivity.
  rewrite (proj1 (calibrate_result K s v p s' E)). reflexivity.
Qed.

Theorem no_calibrate_keeps_vn K : forall ops s,
  Forall no_calibrate ops -> vn (final_state K s ops) = vn s.
Proof.
  intros ops s H. revert s. induction H as [|o r Ho _ IH]; intro s; [reflexivity|].
  rewrite final_state_cons, IH.
  destruct o; [reflexivity | destruct Ho | reflexivity].
Qed.

Theorem no_calibrate_state K s ops : Forall no_calibrate ops ->
  final_state K s ops = {| voltage_in := last_supply (voltage_in s) ops; vn := vn s |}.
Proof.
  intro H.
  rewrite <- (final_voltage_in K ops s), <- (no_calibrate_keeps_vn K ops s H).
  destruct (final_state K s ops). reflexivity.
Qed.

Theorem reads_keep_state K s ops : Forall is_read ops -> final_state K s ops = s.
Proof.
  intro H. rewrite (no_calibrate_state K s ops (reads_no_calibrate ops H)).
  rewrite (last_supply_reads _ ops H). destruct s. reflexivity.
Qed.

(* s.voltage_in = vcc: nothing is returned or raised; Vn stays; an
   uncalibrated sensor divides by the new value from the next read on, a
   calibrated one reads as before *)
Theorem step_set_supply K : forall s vcc,
  step_obs K s (OpSetSupply vcc) = ObsSet /\
  voltage_in (step_state K s (OpSetSupply vcc)) = vcc /\
  vn (step_state K s (OpSetSupply vcc)) = vn s /\
  (vn s = None -> supply (step_state K s (OpSetSupply vcc)) = vcc) /\
  (vn s <> None -> forall v, pressure K (step_state K s (OpSetSupply vcc)) v = pressure K s v).
Proof.
  intros s vcc. split; [reflexivity|]. split; [reflexivity|]. split; [reflexivity|]. split.
  - intro E. unfold supply. cbn [step_state set_supply vn voltage_in]. rewrite E. reflexivity.
  - intros E v. apply pressure_supply. unfold supply. cbn [step_state set_supply vn voltage_in].
    destruct (vn s); [reflexivity|contradiction].
Qed.

Lemma step_calibrate_ok K s v p s' : calibrate K s v p = Val s' ->
  step_state K s (OpCalibrate v p) = s' /\ step_obs K s (OpCalibrate v p) = ObsCalibrate (Val tt).
Proof. intro H. unfold step_state, step_obs. rewrite H. split; reflexivity. Qed.

Section Pressure.
Variable K : sconsts.
Hypothesis HK : consts_ok K = true.

Theorem pressure_total : forall s v,
  exists y, pressure K s v = Val y /\
    (supply s == 0 -> y == 0) /\
    (~ supply s == 0 -> y == 250 * (pymax v v_floor / supply s) - 25).
Proof.
  intros s v.
  destruct (Qeq_dec (supply s) 0) as [E|E]; eexists.
  - split; [exact (pressure_zero K s v E)|]. split; [intros _; exact (consts_zero K HK)|tauto].
  - split; [exact (pressure_nonzero K s v E)|]. split; [tauto|].
    intros _. rewrite (consts_scale K HK), (consts_offset K HK), (consts_floor K HK). reflexivity.
Qed.

Theorem pressure_formula : forall s v,
  v_floor <= v -> ~ supply s == 0 ->
  exists y, pressure K s v = Val y /\ y == 250 * (v / supply s) - 25.
Proof.
  intros s v Hv Hs. destruct (pressure_total s v) as (y & Hy & _ & E).
  exists y. split; [exact Hy|]. rewrite (E Hs), (pymax_ge v _ Hv). reflexivity.
Qed.

Theorem pressure_below_floor : forall s v,
  v <= v_floor -> ~ supply s == 0 ->
  exists y, pressure K s v = Val y /\ y == 250 * (v_floor / supply s) - 25.
Proof.
  intros s v Hv Hs. destruct (pressure_total s v) as (y & Hy & _ & E).
  exists y. split; [exact Hy|]. rewrite (E Hs), (pymax_le v _ Hv). reflexivity.
Qed.

(* the divisor in calibrate(p): 0.004 p + 0.1 = 0.004 (p + 25) *)
Lemma cal_divisor p : c_cal_slope K * p + c_cal_off K == (4 # 1000) * (p + 25).
Proof.
  rewrite (consts_cal_slope K HK), (consts_cal_off K HK). ring.
Qed.

(* after calibrate(p) at voltage v: the state, and how it reads at every v' *)
Theorem calibrated_general : forall s v p,
  ~ p == -25 ->
  exists s',
    calibrate K s v p = Val s' /\ voltage_in s' = voltage_in s /\
    ~ supply s' == 0 /\
    forall v', exists y, pressure K s' v' = Val y /\
      y == (p + 25) * (pymax v' v_floor / pymax v v_floor) - 25.
Proof.
  intros s v p Hp.
  pose proof (cal_divisor p) as Ed. pose proof (pymax_floor_pos v) as Hv.
  assert (Hd : ~ c_cal_slope K * p + c_cal_off K == 0) by (rewrite Ed; lra).
  set (s' := {| voltage_in := voltage_in s;
                vn := Some (pymax v (c_cal_floor K) / (c_cal_slope K * p + c_cal_off K)) |}).
  assert (Es : supply s' == pymax v v_floor / ((4 # 1000) * (p + 25))).
  { unfold supply. simpl. rewrite (consts_cal_floor K HK), Ed. reflexivity. }
  assert (Hn : ~ supply s' == 0) by (rewrite Es; apply div_nonzero; lra).
  exists s'. split; [exact (calibrate_nonzero K s v p Hd)|]. split; [reflexivity|].
  split; [exact Hn|]. intro v'.
  destruct (pressure_total s' v') as (y & Hy & _ & Ey). exists y. split; [exact Hy|].
  (* Vn = V / (0.004 (p + 25)), so 250 V' / Vn = (p + 25) V' / V *)
  rewrite (Ey Hn), Es. field. split; lra.
Qed.

(* the pressures of the property, p >= 0, are among those calibrate accepts *)
Lemma nonneg_calibrates p : 0 <= p -> ~ p == -25.
Proof. lra. Qed.

(* reading at the calibration voltage *)
Lemma same_voltage p m : 0 < m -> (p + 25) * (m / m) - 25 == p.
Proof. intro H. field. lra. Qed.

Theorem calibrated : forall s v p,
  0 <= p ->
  exists s' y,
    calibrate K s v p = Val s' /\ voltage_in s' = voltage_in s /\
    pressure K s' v = Val y /\ y == p.
Proof.
  intros s v p Hp.
  destruct (calibrated_general s v p (nonneg_calibrates p Hp)) as (s' & Hc & Hvi & _ & Hr).
  destruct (Hr v) as (y & Hy & E). exists s', y. repeat split; try assumption.
  rewrite E. apply same_voltage. exact (pymax_floor_pos v).
Qed.

Theorem calibrate_raises : forall s v p,
  p == -25 -> calibrate K s v p = Raise ZeroDivisionError.
Proof.
  intros s v p Hp. unfold calibrate. rewrite pydiv_zero; [reflexivity|].
  rewrite cal_divisor. lra.
Qed.

Theorem step_calibrate_returns : forall s v p, ~ p == -25 ->
  step_obs K s (OpCalibrate v p) = ObsCalibrate (Val tt).
Proof.
  intros s v p Hp. destruct (calibrated_general s v p Hp) as (s' & Hc & _).
  exact (proj2 (step_calibrate_ok K s v p s' Hc)).
Qed.

Theorem step_calibrate_fails : forall s v p, p == -25 ->
  step_state K s (OpCalibrate v p) = s /\
    step_obs K s (OpCalibrate v p) = ObsCalibrate (Raise ZeroDivisionError).
Proof.
  intros s v p Hp. unfold step_state, step_obs. rewrite (calibrate_raises s v p Hp).
  split; reflexivity.
Qed.

Theorem history_reads_never_raise : forall ops s0,
  Forall read_returns (observations K s0 ops).
Proof.
  induction ops as [|o r IH]; intro s0; [constructor|].
  simpl. constructor; [|apply IH].
  destruct o as [v|v p|x]; simpl; [|exact I|exact I].
  destruct (pressure_total s0 v) as (y & Hy & _). exists y. exact Hy.
Qed.

(* what the last calibrate(p <> -25) of a history, [c] = (voltage, p), says of
   the object [s]; [None]: there was none, Vn is as in [s0] *)
Definition reads_as (s0 s : sensor) (c : option (Q * Q)) : Prop :=
  match c with
  | None => vn s = vn s0
  | Some (vc, p) =>
      (exists n, vn s = Some n) /\
      forall v, exists y, pressure K s v = Val y /\
    y == (p + 25) * (pymax v v_floor / pymax vc v_floor) - 25
  end.

Lemma reads_as_run s0 : forall ops s acc,
  reads_as s0 s acc -> reads_as s0 (final_state K s ops) (last_cal_from acc ops).
Proof.
  induction ops as [|o r IH]; intros s acc H; [exact H|].
  rewrite final_state_cons. destruct o as [v|v p|x]; simpl last_cal_from; apply IH.
  - exact H.
  - destruct (Qeq_bool p (-25)) eqn:E.
    + apply Qeq_bool_iff in E. rewrite (proj1 (step_calibrate_fails s v p E)). exact H.
    + pose proof (Qeq_bool_neq _ _ E) as Hp.
      destruct (calibrated_general s v p Hp) as (s' & Hc & _ & _ & Hr).
      rewrite (proj1 (step_calibrate_ok K s v p s' Hc)).
      split; [exact (proj2 (calibrate_result K s v p s' Hc))|exact Hr].
  - destruct (step_set_supply K s x) as (_ & _ & Hvn & _ & Hcal).
    destruct acc as [[vc p]|]; unfold reads_as in H |- *.
    + destruct H as ((n & Hn) & Hr). split; [exists n; rewrite Hvn; exact Hn|].
      intro v. rewrite (Hcal ltac:(rewrite Hn; discriminate) v). exact (Hr v).
    + rewrite Hvn. exact H.
Qed.

(* voltage_in is the last value assigned to it; Vn is untouched while no
   calibrate(p <> -25) was called; else the object reads, at every voltage and
   whatever voltage_in is by now, as the last such calibration says *)
Theorem history_spec : forall s0 ops,
  voltage_in (final_state K s0 ops) = last_supply (voltage_in s0) ops /\
  reads_as s0 (final_state K s0 ops) (last_cal ops).
Proof.
  intros s0 ops. split; [apply final_voltage_in|]. apply reads_as_run. reflexivity.
Qed.

(* whatever was done with the object before (reads, calibrations, failed
   calibrations, assignments of voltage_in), and however many reads at whatever
   voltages and assignments of voltage_in follow calibrate(p) at v: a read at
   v' is as that calibration says *)
Theorem history_calibrated_general : forall s0 pre v p mid v',
  ~ p == -25 -> Forall no_calibrate mid ->
  exists obs y,
    observations K s0 (pre ++ OpCalibrate v p :: mid ++ [OpRead v']) = obs ++ [ObsRead (Val y)] /\
    y == (p + 25) * (pymax v' v_floor / pymax v v_floor) - 25.
Proof.
  intros s0 pre v p mid v' Hp Hm. rewrite app_comm_cons, app_assoc. apply read_after.
  pose proof (proj2 (history_spec s0 (pre ++ OpCalibrate v p :: mid))) as H.
  rewrite (last_cal_after pre v p mid Hp Hm) in H. exact (proj2 H v').
Qed.

(* ... at the calibration voltage the sensor reports p *)
Theorem history_calibrated : forall s0 pre v p mid,
  ~ p == -25 -> Forall no_calibrate mid ->
  exists obs y,
    observations K s0 (pre ++ OpCalibrate v p :: mid ++ [OpRead v]) = obs ++ [ObsRead (Val y)] /\
    y == p.
Proof.
  intros s0 pre v p mid Hp Hm.
  destruct (history_calibrated_general s0 pre v p mid v Hp Hm) as (obs & y & Ho & E).
  exists obs, y. split; [exact Ho|]. rewrite E. apply same_voltage. exact (pymax_floor_pos v).
Qed.

(* an uncalibrated sensor divides by the voltage_in it has NOW: built with
   vcc0, then any reads and any assignments of voltage_in (the measured supply
   rail; or a placeholder / 0 at construction and the real value later), a read
   at v reports 250 v / Vcc - 25 for the LAST value Vcc given to voltage_in *)
Theorem history_supply_tracked : forall vcc0 ops v,
  Forall no_calibrate ops -> v_floor <= v -> ~ last_supply vcc0 ops == 0 ->
  exists obs y,
    observations K (new_sensor vcc0) (ops ++ [OpRead v]) = obs ++ [ObsRead (Val y)] /\
    y == 250 * (v / last_supply vcc0 ops) - 25.
Proof.
  intros vcc0 ops v H Hv Hs. apply read_after. rewrite (no_calibrate_state K _ ops H).
  exact (pressure_formula (new_sensor (last_supply vcc0 ops)) v Hv Hs).
Qed.

Theorem history_uncalibrated : forall vcc reads v,
  Forall is_read reads -> v_floor <= v -> ~ vcc == 0 ->
  exists obs y,
    observations K (new_sensor vcc) (reads ++ [OpRead v]) = obs ++ [ObsRead (Val y)] /\
    y == 250 * (v / vcc) - 25.
Proof.
  intros vcc reads v Hr Hv.
  pose proof (history_supply_tracked vcc reads v (reads_no_calibrate reads Hr) Hv) as H.
  rewrite (last_supply_reads vcc reads Hr) in H. exact H.
Qed.

(* ... for every voltage and every value of voltage_in: never raises; 0 exactly
   while voltage_in is 0 *)
Theorem history_supply_total : forall vcc0 ops v,
  Forall no_calibrate ops ->
  exists obs y,
    observations K (new_sensor vcc0) (ops ++ [OpRead v]) = obs ++ [ObsRead (Val y)] /\
    (last_supply vcc0 ops == 0 -> y == 0) /\
    (~ last_supply vcc0 ops == 0 -> y == 250 * (pymax v v_floor / last_supply vcc0 ops) - 25).
Proof.
  intros vcc0 ops v H. apply read_after. rewrite (no_calibrate_state K _ ops H).
  exact (pressure_total (new_sensor (last_supply vcc0 ops)) v).
Qed.

End Pressure.

Lemma via_link_proper s d k :
  Forall link_proper s -> Forall link_proper d -> link_proper (via_link s d k).
Proof.
  intros Hs Hd. split; intros x y E; simpl.
  - apply convert_proper; [exact Hd|exact Hs|]. rewrite E. reflexivity.
  - rewrite (convert_proper s d x y Hs Hd E). reflexivity.
Qed.

(* a unit defined through convert() on units with mutually inverse callables
   has mutually inverse callables itself *)
Theorem via_link_inverse s d k :
  Forall link_inverse s -> Forall link_inverse d -> ~ k == 0 ->
  link_inverse (via_link s d k).
Proof.
  intros Hs Hd Hk.
  pose proof (inverse_proper_all s Hs) as Ps. pose proof (inverse_proper_all d Hd) as Pd.
  split; [exact (via_link_proper s d k Ps Pd)|]. split; intro x; simpl.
  - rewrite (there_and_back d s (x * k) Hd Hs). field. exact Hk.
  - transitivity (convert d s (convert s d x)).
    + apply convert_proper; [exact Pd|exact Ps|]. field. exact Hk.
    + apply there_and_back; assumption.
Qed.

Theorem via_link_linear s d k :
  Forall link_linear s -> Forall link_linear d -> link_linear (via_link s d k).
Proof.
  intros Hs Hd.
  pose proof (linear_proper_all s Hs) as Ps. pose proof (linear_proper_all d Hd) as Pd.
  destruct (linear d s Hd Hs) as (Ads & Sds). destruct (linear s d Hs Hd) as (Asd & Ssd).
  split; [exact (via_link_proper s d k Ps Pd)|]. repeat split; intros; simpl.
  - rewrite <- Ads. apply convert_proper; [exact Pd|exact Ps|]. ring.
  - rewrite <- Sds. apply convert_proper; [exact Pd|exact Ps|]. ring.
  - rewrite Asd. unfold Qdiv. ring.
  - rewrite Ssd. unfold Qdiv. ring.
Qed.

Lemma build_entry_val tbl e x : build_entry tbl e = Val x ->
  parent_defined (length tbl) (fst e) = true /\ fst x = fst e /\
  match snd e with
  | UAffine a b => snd x = plain (length tbl) (affine_link a b)
  | UVia s d k =>
      exists cs cd, chain_of tbl s = Val cs /\ chain_of tbl d = Val cd /\
        snd x = {| b_link := via_link (links cs) (links cd) k;
                   b_llink := lvia (length tbl) (llinks cs) (llinks cd) k |}
  end.
Proof.
  unfold build_entry. destruct (parent_defined _ _); [|discriminate].
  destruct (snd e) as [a b|s d k].
  - intro H. injection H as <-. auto.
  - destruct (chain_of tbl s) as [cs| |]; try discriminate.
    destruct (chain_of tbl d) as [cd| |]; try discriminate.
    intro H. injection H as <-. split; [reflexivity|]. split; [reflexivity|].
    exists cs, cd. auto.
Qed.

(* a property of tables that every Unit(...) call preserves holds of the
   table that a definition list builds *)
Lemma build_from_invariant (Inv : list (option nat * built) -> Prop) :
  forall spec tbl0 tbl,
  (forall t e x, In e spec -> Inv t -> build_entry t e = Val x -> Inv (t ++ [x])) ->
  Inv tbl0 -> build_from tbl0 spec = Val tbl -> Inv tbl.
Proof.
  induction spec as [|e r IH]; intros tbl0 tbl Hstep H0 H; simpl in H.
  - injection H as <-. exact H0.
  - destruct (build_entry tbl0 e) as [x| |] eqn:E; try discriminate.
    apply (IH (tbl0 ++ [x]) tbl); [| |exact H].
    + intros t e' x' Hin. apply Hstep. right. exact Hin.
    + apply (Hstep tbl0 e x); [left; reflexivity|exact H0|exact E].
Qed.

(* ... in particular what holds of a unit with arithmetic callables, and of a
   unit whose callables call convert() provided it holds along the two chains
   they mention, holds of every non-root unit *)
Lemma built_units (R : built -> Prop) spec tbl :
  (forall p u a b, In (Some p, UAffine a b) spec -> R (plain u (affine_link a b))) ->
  (forall p u s d k cs cd, In (Some p, UVia s d k) spec ->
     Forall R (map snd cs) -> Forall R (map snd cd) ->
     R {| b_link := via_link (links cs) (links cd) k;
          b_llink := lvia u (llinks cs) (llinks cd) k |}) ->
  build_units spec = Val tbl -> on_units R tbl.
Proof.
  intros Haff Hvia. apply (build_from_invariant (on_units R)); [|constructor].
  intros t e x Hin Ht Hb. apply Forall_app. split; [exact Ht|]. constructor; [|constructor].
  destruct (build_entry_val t e x Hb) as (_ & Hf & Hs). rewrite Hf. intro Hp.
  (* a root is not asked for R *)
  destruct e as [[p|] sp]; [|destruct Hp; reflexivity].
  destruct sp as [a b|s d k]; cbn [snd] in Hs.
  - rewrite Hs. exact (Haff p _ a b Hin).
  - destruct Hs as (cs & cd & Es & Ed & ->).
    exact (Hvia p _ s d k cs cd Hin (chain_entries Ht Es) (chain_entries Ht Ed)).
Qed.

Lemma negb_Qeq_bool a : negb (Qeq_bool a 0) = true -> ~ a == 0.
Proof.
  intros H E. apply Qeq_bool_iff in E. rewrite E in H. discriminate.
Qed.

(* a property R of links that the arithmetic callables and the callables
   through convert() have, each under the check [ok] on its definition, holds
   of every non-root unit of a definition list that passes the check *)
Lemma built_links (R : link -> Prop) (ok : option nat * uspec -> bool) :
  (forall p a b, ok (Some p, UAffine a b) = true -> R (affine_link a b)) ->
  (forall p s d k cs cd, ok (Some p, UVia s d k) = true ->
     Forall R cs -> Forall R cd -> R (via_link cs cd k)) ->
  forall spec tbl, forallb ok spec = true -> build_units spec = Val tbl ->
  on_units R (pure_table tbl).
Proof.
  intros Haff Hvia spec tbl Hok H. rewrite forallb_forall in Hok.
  unfold on_units, pure_table. apply Forall_map.
  apply (built_units (fun b => R (b_link b)) spec tbl); [| |exact H].
  - intros p u a b Hin. exact (Haff p a b (Hok _ Hin)).
  - intros p u s d k cs cd Hin Hs Hd.
    apply (Hvia p s d k _ _ (Hok _ Hin)); apply Forall_map; assumption.
Qed.

(* every unit of a definition list with invertible arithmetic -- at any depth
   of chaining and of nesting of convert() calls -- has mutually inverse
   callables: the generic theorems apply to such tables *)
Theorem built_inverse : forall spec tbl,
  spec_ok spec = true -> build_units spec = Val tbl ->
  table_links_inverse (pure_table tbl).
Proof.
  apply (built_links link_inverse entry_ok).
  - intros p a b H. apply affine_link_inverse, negb_Qeq_bool, H.
  - intros p s d k cs cd H Hs Hd. apply via_link_inverse; [exact Hs|exact Hd|].
    apply negb_Qeq_bool, H.
Qed.

Theorem built_linear : forall spec tbl,
  spec_linear spec = true -> build_units spec = Val tbl ->
  table_links_linear (pure_table tbl).
Proof.
  apply (built_links link_linear entry_linear).
  - intros p a b H. apply andb_true_iff in H. apply affine_link_linear, Qeq_bool_iff, (proj2 H).
  - intros p s d k cs cd _. exact (via_link_linear cs cd k).
Qed.

Theorem built_consistent : forall spec tbl,
  spec_ok spec = true -> build_units spec = Val tbl ->
  (forall u x y, convert_built tbl u u x = Val y -> y == x) /\
  (forall a b x y, convert_built tbl a b x = Val y ->
     exists z, convert_built tbl b a y = Val z /\ z == x) /\
  (forall a b c x y z, convert_built tbl a b x = Val y -> convert_built tbl b c y = Val z ->
     exists w, convert_built tbl a c x = Val w /\ z == w).
Proof.
  intros spec tbl Hok H. pose proof (built_inverse spec tbl Hok H) as HT.
  unfold convert_built. repeat split.
  - intros u x y. apply tbl_same_unit. exact HT.
  - intros a b x y. apply tbl_there_and_back. exact HT.
  - intros a b c x y z. apply tbl_composition. exact HT.
Qed.

Theorem built_convert_linear : forall spec tbl a b x1 x2 c y1 y2,
  spec_linear spec = true -> build_units spec = Val tbl ->
  convert_built tbl a b x1 = Val y1 -> convert_built tbl a b x2 = Val y2 ->
  (exists s, convert_built tbl a b (x1 + x2) = Val s /\ s == y1 + y2) /\
  (exists m, convert_built tbl a b (c * x1) = Val m /\ m == c * y1).
Proof.
  intros spec tbl a b x1 x2 c y1 y2 Hok H. unfold convert_built.
  apply tbl_linear. exact (built_linear spec tbl Hok H).
Qed.

(* units are defined in order, so every loop of convert() ends *)
Definition backward {P} (tbl : list (option nat * P)) : Prop :=
  forall i p pl, nth_error tbl i = Some (Some p, pl) -> (p < i)%nat.

Lemma built_backward spec tbl : build_units spec = Val tbl -> backward tbl.
Proof.
  apply (build_from_invariant backward); [|intros [|i] p pl Hn; discriminate].
  intros t e x _ Ht Hb i p pl Hn.
  destruct (Nat.lt_ge_cases i (length t)) as [Hi|Hi].
  - rewrite nth_error_app1 in Hn by exact Hi. exact (Ht i p pl Hn).
  - rewrite nth_error_app2 in Hn by exact Hi.
    destruct (i - length t)%nat as [|[|j]] eqn:Ej; try discriminate.
    injection Hn as ->.
    destruct (build_entry_val t e _ Hb) as (Hd & Hf & _). simpl in Hf.
    rewrite <- Hf in Hd. apply Nat.ltb_lt in Hd. lia.
Qed.

Lemma backward_chain {P} (tbl : list (option nat * P)) : backward tbl ->
  forall fuel u, (u < fuel)%nat -> (u < length tbl)%nat -> exists ch, chain tbl fuel u = Val ch.
Proof.
  intros HB. induction fuel as [|f IH]; intros u Hf Hu; [lia|].
  simpl. destruct (nth_error tbl u) as [[[p|] pl]|] eqn:E.
  - pose proof (HB u p pl E) as Hp.
    destruct (IH p) as (r & Hr); [lia|lia|]. rewrite Hr. eexists. reflexivity.
  - eexists. reflexivity.
  - apply nth_error_None in E. lia.
Qed.

Theorem built_chains_finite : forall spec tbl u,
  build_units spec = Val tbl -> (u < length tbl)%nat ->
  exists ch, chain_of tbl u = Val ch.
Proof.
  intros spec tbl u H Hu. apply backward_chain; [exact (built_backward spec tbl H)|lia|exact Hu].
Qed.

Lemma links_pure ch : map snd (map (fun e : nat * built => (fst e, b_link (snd e))) ch) = links ch.
Proof. unfold links. rewrite !map_map. reflexivity. Qed.

Theorem built_convert_returns : forall spec tbl a b x,
  build_units spec = Val tbl -> (a < length tbl)%nat -> (b < length tbl)%nat ->
  exists y, convert_built tbl a b x = Val y.
Proof.
  intros spec tbl a b x H Ha Hb.
  destruct (built_chains_finite spec tbl a H Ha) as (ca & Ea).
  destruct (built_chains_finite spec tbl b H Hb) as (cb & Eb).
  unfold convert_built, convert_tbl, pure_table. rewrite !chain_of_map, Ea, Eb. eexists. reflexivity.
Qed.

(* the logging callables compute the same numbers as the plain ones *)
Definition erases (b : built) : Prop :=
  forall v, fst (l_up (b_llink b) v) = to_base (b_link b) (fst v) /\
            fst (l_down (b_llink b) v) = from_base (b_link b) (fst v).

Lemma lconvert_fst bs bd : Forall erases bs -> Forall erases bd ->
  forall v, fst (lconvert (map b_llink bs) (map b_llink bd) v) =
            convert (map b_link bs) (map b_link bd) (fst v).
Proof.
  intros Hs Hd. unfold lconvert, convert. apply (convert_with_hom fst); apply Forall2_maps.
  - revert Hs. apply Forall_impl. intros b Hb w. exact (proj1 (Hb w)).
  - revert Hd. apply Forall_impl. intros b Hb w. exact (proj2 (Hb w)).
Qed.

Lemma built_erases spec tbl : build_units spec = Val tbl -> on_units erases tbl.
Proof.
  apply built_units.
  - intros p u a b _ v. split; reflexivity.
  - intros p u s d k cs cd _ Hs Hd v. split; simpl; unfold llinks, links.
    + rewrite (lconvert_fst _ _ Hd Hs). reflexivity.
    + rewrite (lconvert_fst _ _ Hs Hd). reflexivity.
Qed.

(* the number that the logging run returns is the number of the plain run *)
Theorem built_trace_value : forall spec tbl a b x,
  build_units spec = Val tbl ->
  match trace_built tbl a b x, convert_built tbl a b x with
  | Val r, Val y => fst r = y
  | Raise e, Raise e' => e = e'
  | Loops, Loops => True
  | _, _ => False
  end.
Proof.
  intros spec tbl a b x H. pose proof (built_erases spec tbl H) as HE.
  unfold trace_built, convert_built, convert_tbl, pure_table. rewrite !chain_of_map.
  destruct (chain_of tbl a) as [ca|ea|] eqn:Ea; [|reflexivity|exact I].
  destruct (chain_of tbl b) as [cb|eb|] eqn:Eb; [|reflexivity|exact I].
  rewrite !links_pure.
  exact (lconvert_fst _ _ (chain_entries HE Ea) (chain_entries HE Eb) (x, [])).
Qed.

(* what one application of a callable appends to the log (it does not depend
   on the number or on the log so far, see [uniform]) *)
Definition up_log (ll : llink) : list (nat * bool) := snd (l_up ll (0, [])).
Definition down_log (ll : llink) : list (nat * bool) := snd (l_down ll (0, [])).

Definition uniform (ll : llink) : Prop :=
  forall v, snd (l_up ll v) = snd v ++ up_log ll /\ snd (l_down ll v) = snd v ++ down_log ll.

(* convert() appends: the callables' logs up the source chain in order, then
   down the target chain from the root end -- each callable's log in one
   piece, nested activations included *)
Theorem lconvert_log ls ld : Forall uniform ls -> Forall uniform ld ->
  forall v, snd (lconvert ls ld v) =
            snd v ++ concat (map up_log ls) ++ concat (map down_log (rev ld)).
Proof.
  intros Hs Hd v. unfold lconvert.
  (* on logs every callable is "append my log" *)
  rewrite (convert_with_hom snd l_up l_down (fun lg w => w ++ lg) (fun lg w => w ++ lg)
             ls (map up_log ls) ld (map down_log ld)).
  - unfold convert_with, unfold_down, fold_up. rewrite !fold_app_concat, map_rev, app_assoc. reflexivity.
  - apply Forall2_map_r. revert Hs. apply Forall_impl. intros l Hl w. exact (proj1 (Hl w)).
  - apply Forall2_map_r. revert Hd. apply Forall_impl. intros l Hl w. exact (proj2 (Hl w)).
Qed.

(* a callable that appends the same U (D) to every log is uniform, and U (D)
   is its log *)
Lemma uniform_intro ll U D :
  (forall v, snd (l_up ll v) = snd v ++ U) -> (forall v, snd (l_down ll v) = snd v ++ D) ->
  uniform ll /\ up_log ll = U /\ down_log ll = D.
Proof.
  intros HU HD. pose proof (HU (0, [])) as EU. pose proof (HD (0, [])) as ED.
  fold (up_log ll) in EU. fold (down_log ll) in ED. simpl in EU, ED.
  split; [|split; assumption]. intro v. rewrite EU, ED. split; [apply HU|apply HD].
Qed.

Theorem logged_log u l :
  uniform (logged u l) /\ up_log (logged u l) = [(u, true)] /\ down_log (logged u l) = [(u, false)].
Proof. apply uniform_intro; reflexivity. Qed.

Theorem lvia_log u s d k : Forall uniform s -> Forall uniform d ->
  uniform (lvia u s d k) /\
  up_log (lvia u s d k) = (u, true) :: concat (map up_log d) ++ concat (map down_log (rev s)) /\
  down_log (lvia u s d k) = (u, false) :: concat (map up_log s) ++ concat (map down_log (rev d)).
Proof.
  intros Hs Hd. apply uniform_intro; intro v; simpl.
  - rewrite (lconvert_log d s Hd Hs). simpl. rewrite <- app_assoc. reflexivity.
  - rewrite (lconvert_log s d Hs Hd). simpl. rewrite <- app_assoc. reflexivity.
Qed.

Lemma built_uniform spec tbl :
  build_units spec = Val tbl -> on_units (fun b => uniform (b_llink b)) tbl.
Proof.
  apply (built_units (fun b => uniform (b_llink b))).
  - intros p u a b _. apply logged_log.
  - intros p u s d k cs cd _ Hs Hd. apply lvia_log; unfold llinks; apply Forall_map; assumption.
Qed.

(* the log of convert(a, b, x) on a definition list, for every x *)
Theorem built_trace_log : forall spec tbl a b x ca cb,
  build_units spec = Val tbl -> chain_of tbl a = Val ca -> chain_of tbl b = Val cb ->
  exists r, trace_built tbl a b x = Val r /\
            snd r = concat (map up_log (llinks ca)) ++ concat (map down_log (rev (llinks cb))).
Proof.
  intros spec tbl a b x ca cb H Ea Eb. pose proof (built_uniform spec tbl H) as HU.
  unfold trace_built. rewrite Ea, Eb. eexists. split; [reflexivity|].
  rewrite lconvert_log; [reflexivity| |]; unfold llinks; apply Forall_map.
  - exact (chain_entries HU Ea).
  - exact (chain_entries HU Eb).
Qed.
