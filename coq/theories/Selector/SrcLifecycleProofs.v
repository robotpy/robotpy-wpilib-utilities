(* Selector/SrcLifecycleProofs.v -- the reference translation of the lifecycle
   methods of selector.py (Selector/SrcLifecycle.v) IS the model
   (Selector/Model.v), for every selector, selection, clock reading and state. *)
From Coq Require Import String List ZArith Bool.
Import ListNotations.
Open Scope string_scope.
Open Scope list_scope.
From RV Require Import Selector.Model Selector.SrcLifecycle.

Lemma lstate_eta : forall st, mkL (active st) (timer st) (robot_exit st) = st.
Proof. intros []. reflexivity. Qed.

(* _on_autonomous_enable: `auto_mode is not None and auto_mode in self.modes` then
   `self.modes[auto_mode]`, else the chooser -- the model's [select] *)
Lemma ref_on_autonomous_enable_spec : forall r s now st,
  ref_on_autonomous_enable r s now st = Some (on_autonomous_enable r st s).
Proof.
  intros r [d c] now st. unfold ref_on_autonomous_enable, on_autonomous_enable, select, dict_mem. simpl.
  destruct d as [a|].
  - destruct (dict_get a (modes r)) as [m|]; [reflexivity|].
    destruct (chooser_selected (chooser_of r) c); reflexivity.
  - destruct (chooser_selected (chooser_of r) c); reflexivity.
Qed.

Lemma ref_on_iteration_spec : forall r s now st t,
  ref_on_iteration r s now st t = Some (st, on_iteration st t).
Proof.
  intros r s now [a tm ex] t. unfold ref_on_iteration, on_iteration. simpl. destruct a; reflexivity.
Qed.

Lemma ref_disable_spec : forall r s now st, ref_disable r s now st = step r st Disable.
Proof.
  intros r s now [a tm ex]. unfold ref_disable, step, do_disable. simpl. destruct a; reflexivity.
Qed.

(* start() is _on_autonomous_enable on the state with the timer restarted *)
Lemma ref_start_spec : forall r s now st, ref_start r s now st = step r st (Start s now).
Proof.
  intros r s now st.
  exact (ref_on_autonomous_enable_spec r s now (mkL (active st) (Some now) (robot_exit st))).
Qed.

Lemma ref_periodic_spec : forall r s now st, ref_periodic r s now st = step r st (Periodic now).
Proof.
  intros r s now [a tm ex]. unfold ref_periodic, step, do_periodic, on_iteration. simpl.
  destruct tm as [t0|]; [|reflexivity]. destruct a; reflexivity.
Qed.

Lemma ref_endCompetition_spec : forall r s now st, ref_endCompetition r s now st = step r st EndCompetition.
Proof. reflexivity. Qed.

Theorem ref_lifecycle_is_model : forall r s now st t,
  ref_on_autonomous_enable r s now st = Some (on_autonomous_enable r st s) /\
  ref_on_iteration r s now st t = Some (st, on_iteration st t) /\
  ref_disable r s now st = step r st Disable /\
  ref_start r s now st = step r st (Start s now) /\
  ref_periodic r s now st = step r st (Periodic now) /\
  ref_endCompetition r s now st = step r st EndCompetition.
Proof.
  intros. split; [apply ref_on_autonomous_enable_spec|]. split; [apply ref_on_iteration_spec|].
  split; [apply ref_disable_spec|]. split; [apply ref_start_spec|]. split; [apply ref_periodic_spec|].
  apply ref_endCompetition_spec.
Qed.

(* Hence run_ops -- every call sequence of start/periodic/disable/endCompetition
   -- steps through the translated methods.  They all take (r, s, now, st);
   [ref_step] passes the dummies (None, None) and 0 where a method reads neither:
   periodic ignores s, disable and endCompetition ignore s and now. *)
Definition ref_step (r : selector) (st : lstate) (o : op) : option (lstate * list event) :=
  match o with
  | Start s now => ref_start r s now st
  | Periodic now => ref_periodic r (None, None) now st
  | Disable => ref_disable r (None, None) 0%Z st
  | EndCompetition => ref_endCompetition r (None, None) 0%Z st
  | RunPeriod s t0 wakes => Some (do_run r st s t0 wakes)   (* run(): not translated, the model's *)
  end.

Theorem ref_step_is_step : forall r st o, ref_step r st o = step r st o.
Proof.
  intros r st [s now|now| |s t0 wakes|]; simpl.
  - (* Start *) apply ref_start_spec.
  - (* Periodic *) apply ref_periodic_spec.
  - (* Disable *) apply ref_disable_spec.
  - (* RunPeriod: the model's on both sides *) reflexivity.
  - (* EndCompetition *) apply ref_endCompetition_spec.
Qed.

Print Assumptions ref_lifecycle_is_model.
Print Assumptions ref_step_is_step.
