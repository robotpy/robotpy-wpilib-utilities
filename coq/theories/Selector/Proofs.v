(* Selector/Proofs.v -- lemmas and theorems about Selector.Model for ALL
   package layouts, FMS states, selections and call sequences: lists and
   dictionaries; discovery (__init__ read as one fold, [scan_items], over a flat
   list of items: the constructor calls, the outcome without and with FMS, the
   chooser and the selection, "once each", failing constructors); the import of
   the package itself; implicit packages; the lifecycle; then the closed
   counter-examples, and what the examples of Properties/C14.v need.
   Definitions that statements of C14.v use stand with their first theorem:
   [is_prefix], [is_default_kv] (discovery); [calm], [open_period], [is_enable],
   [quiet_after_disable] (lifecycle); [clash_pkg], [none_pkg], [ev_kind],
   [two_pkg] (counter-examples). *)
From Coq Require Import String Ascii List ZArith Bool Arith Lia Permutation.
From RV Require Import Selector.Model Selector.Spec.
Import ListNotations.
Open Scope string_scope.
Open Scope list_scope.

Lemma app_cons_snoc {A} (l r : list A) (c : A) : l ++ c :: r = (l ++ [c]) ++ r.
Proof. now rewrite <- app_assoc. Qed.

Lemma NoDup_app_iff {A} (a b : list A) :
  NoDup (a ++ b) <-> NoDup a /\ NoDup b /\ (forall x, In x a -> In x b -> False).
Proof.
  induction a as [|x a IH]; simpl.
  - split; [intros H; repeat split; [constructor|assumption|intros x []]|tauto].
  - split.
    + intros H. inversion H as [|? ? Hn Hd]; subst. apply IH in Hd as (Ha & Hb & Hd).
      rewrite in_app_iff in Hn. split; [constructor; tauto|]. split; [assumption|].
      intros y [<-|Hy] Hyb; [tauto|eauto].
    + intros (Ha & Hb & Hd). inversion Ha; subst. constructor.
      * rewrite in_app_iff. intros [H|H]; [contradiction|]. apply (Hd x); [now left|assumption].
      * apply IH. repeat split; auto. intros y Hy. apply Hd. now right.
Qed.

Lemma NoDup_map_filter {A B} (f : A -> B) (g : A -> bool) : forall l,
  NoDup (map f l) -> NoDup (map f (filter g l)).
Proof.
  induction l as [|x l IH]; simpl; intros H; [constructor|].
  inversion H as [|? ? Hn Hd]; subst. destruct (g x); simpl; [|now apply IH].
  constructor; [|now apply IH]. intros Hin. apply Hn.
  apply in_map_iff in Hin as [y [Hy Hin]]. apply filter_In in Hin.
  apply in_map_iff. exists y. tauto.
Qed.

Lemma NoDup_map_In_inj {A B} (f : A -> B) : forall l x y,
  NoDup (map f l) -> In x l -> In y l -> f x = f y -> x = y.
Proof.
  induction l as [|a l IH]; intros x y Hn Hx Hy Hf; [contradiction|].
  simpl in Hn. inversion Hn as [|? ? Hn1 Hn2]; subst.
  destruct Hx as [Hx|Hx], Hy as [Hy|Hy]; subst; auto.
  - exfalso. apply Hn1. rewrite Hf. now apply in_map.
  - exfalso. apply Hn1. rewrite <- Hf. now apply in_map.
Qed.

Lemma NoDup_map_on {A B C} (f : A -> B) (g : A -> C) : forall l,
  NoDup (map f l) -> (forall x y, In x l -> In y l -> g x = g y -> f x = f y) -> NoDup (map g l).
Proof.
  induction l as [|a l IH]; simpl; intros Hn Hfg; [constructor|].
  inversion Hn as [|? ? Hn1 Hn2]; subst. constructor; [|apply IH; auto].
  intros Hin. apply Hn1. apply in_map_iff in Hin as [y [Hy Hin]].
  apply in_map_iff. exists y. split; [apply Hfg; auto|assumption].
Qed.

Lemma NoDup_map_flat_map {A B C K} (key : A -> K) (g : A -> list B) (f : B -> C) : forall l,
  NoDup (map key l) ->
  (forall a, In a l -> NoDup (map f (g a))) ->
  (forall a b x y, In a l -> In b l -> In x (g a) -> In y (g b) -> f x = f y -> key a = key b) ->
  NoDup (map f (flat_map g l)).
Proof.
  induction l as [|a l IH]; intros Hk Hg Hx; simpl; [constructor|].
  inversion Hk as [|? ? Hn Hk']; subst.
  rewrite map_app. apply NoDup_app_iff. split; [|split].
  - apply Hg. now left.
  - apply IH; [assumption| |].
    + intros b Hb. apply Hg. now right.
    + intros b c x y Hb Hc. apply Hx; now right.
  - intros z Hz1 Hz2. apply Hn.
    apply in_map_iff in Hz1 as [x [Hx1 Hx2]].
    apply in_map_iff in Hz2 as [y [Hy1 Hy2]].
    apply in_flat_map in Hy2 as [b [Hb Hy2]].
    rewrite (Hx a b x y); [now apply in_map|now left|now right|assumption|assumption|congruence].
Qed.

Lemma Permutation_filter_length {A} (f : A -> bool) : forall l l',
  Permutation l l' -> length (filter f l) = length (filter f l').
Proof.
  induction 1; simpl; try congruence.
  - destruct (f x); simpl; congruence.
  - destruct (f x), (f y); reflexivity.
Qed.

Section DictLemmas.
Context {V : Type}.
Implicit Types (d : list (string * V)) (k : string) (v : V).

Lemma dict_get_set : forall d k k' v,
  dict_get k (dict_set k' v d) = if k' =? k then Some v else dict_get k d.
Proof.
  induction d as [|[k0 v0] d IH]; intros k k' v; simpl.
  - reflexivity.
  - destruct (k0 =? k') eqn:E0; simpl.
    + apply String.eqb_eq in E0. subst k0.
      destruct (k' =? k); reflexivity.
    + rewrite IH. destruct (k0 =? k) eqn:E1; [|reflexivity].
      apply String.eqb_eq in E1. subst k0. rewrite String.eqb_sym, E0. reflexivity.
Qed.

Lemma dict_get_In : forall d k v, dict_get k d = Some v -> In (k, v) d.
Proof.
  induction d as [|[k0 v0] d IH]; simpl; intros k v H; [discriminate|].
  destruct (k0 =? k) eqn:E.
  - apply String.eqb_eq in E. inversion H. subst. now left.
  - right. now apply IH.
Qed.

Lemma dict_get_None : forall d k, dict_get k d = None <-> ~ In k (map fst d).
Proof.
  induction d as [|[k0 v0] d IH]; simpl; intros k.
  - split; auto.
  - destruct (k0 =? k) eqn:E.
    + apply String.eqb_eq in E. split; [discriminate|]. intros H. exfalso. apply H. now left.
    + apply String.eqb_neq in E. rewrite IH. split.
      * intros H [H1|H1]; [now apply E | now apply H].
      * intros H H1. apply H. now right.
Qed.

Lemma dict_mem_true : forall d k, dict_mem k d = true <-> In k (map fst d).
Proof.
  intros d k. unfold dict_mem. destruct (dict_get k d) eqn:E.
  - split; [intros _|reflexivity]. apply dict_get_In in E. apply in_map_iff. now exists (k, v).
  - split; [discriminate|]. intros H. apply dict_get_None in E. contradiction.
Qed.

Lemma dict_mem_false : forall d k, dict_mem k d = false <-> ~ In k (map fst d).
Proof.
  intros d k. rewrite <- dict_mem_true. destruct (dict_mem k d); split; congruence.
Qed.

Lemma dict_set_fresh : forall d k v, ~ In k (map fst d) -> dict_set k v d = d ++ [(k, v)].
Proof.
  induction d as [|[k0 v0] d IH]; simpl; intros k v H; [reflexivity|].
  destruct (k0 =? k) eqn:E.
  - apply String.eqb_eq in E. exfalso. apply H. now left.
  - f_equal. apply IH. intros H1. apply H. now right.
Qed.

Lemma dict_set_keys : forall d k v k',
  In k' (map fst (dict_set k v d)) <-> k = k' \/ In k' (map fst d).
Proof.
  induction d as [|[k0 v0] d IH]; simpl; intros k v k'; [reflexivity|].
  destruct (k0 =? k) eqn:E; simpl.
  - apply String.eqb_eq in E. subst. tauto.
  - rewrite IH. tauto.
Qed.

Lemma dict_set_NoDup : forall d k v, NoDup (map fst d) -> NoDup (map fst (dict_set k v d)).
Proof.
  induction d as [|[k0 v0] d IH]; simpl; intros k v H.
  - constructor; [intros []|constructor].
  - inversion H as [|? ? Hn Hd]; subst. destruct (k0 =? k) eqn:E; simpl.
    + apply String.eqb_eq in E. subst. now constructor.
    + constructor; [|now apply IH]. rewrite dict_set_keys. intros [H1|H1].
      * subst. now rewrite String.eqb_refl in E.
      * contradiction.
Qed.

Lemma dict_get_NoDup_In : forall d k v, NoDup (map fst d) -> In (k, v) d -> dict_get k d = Some v.
Proof.
  induction d as [|[k0 v0] d IH]; simpl; intros k v Hn Hi; [contradiction|].
  inversion Hn as [|? ? Hn1 Hn2]; subst. destruct Hi as [Hi|Hi].
  - inversion Hi; subst. now rewrite String.eqb_refl.
  - destruct (k0 =? k) eqn:E.
    + apply String.eqb_eq in E. subst. exfalso. apply Hn1. apply in_map_iff. now exists (k, v).
    + now apply IH.
Qed.

Lemma dict_get_not_None_In : forall d k,
  In k (map fst d) <-> dict_get k d <> None.
Proof.
  intros d k. split.
  - intros Hin Hg. apply dict_get_None in Hg. contradiction.
  - intros Hg. destruct (in_dec string_dec k (map fst d)) as [Hi|Hi]; [assumption|].
    apply dict_get_None in Hi. contradiction.
Qed.

Lemma dict_set_In : forall d k v k' v',
  In (k', v') (dict_set k v d) -> (k', v') = (k, v) \/ In (k', v') d.
Proof.
  induction d as [|[k0 v0] d IH]; intros k v k' v' H; simpl in H.
  - destruct H as [H|[]]. left. now symmetry.
  - destruct (k0 =? k).
    + destruct H as [H|H]; [left; now symmetry|right; now right].
    + destruct H as [H|H]; [right; now left|]. apply IH in H. destruct H; [now left|right; now right].
Qed.

Lemma insert_sorted_perm : forall (kv : string * V) l, Permutation (kv :: l) (insert_sorted kv l).
Proof.
  induction l as [|kv' l IH]; simpl; [reflexivity|].
  destruct (fst kv <=? fst kv')%string; [reflexivity|].
  rewrite perm_swap. now constructor.
Qed.

Lemma sort_items_perm : forall (l : list (string * V)), Permutation l (sort_items l).
Proof.
  induction l as [|kv l IH]; simpl; [reflexivity|].
  rewrite <- insert_sorted_perm. now constructor.
Qed.

Lemma dict_get_perm : forall d d' k, NoDup (map fst d) -> Permutation d d' ->
  dict_get k d' = dict_get k d.
Proof.
  intros d d' k Hn Hp.
  assert (Hn' : NoDup (map fst d')).
  { eapply Permutation_NoDup; [|exact Hn]. now apply Permutation_map. }
  destruct (dict_get k d) eqn:E.
  - apply dict_get_In in E. apply dict_get_NoDup_In; [assumption|].
    eapply Permutation_in; eassumption.
  - apply dict_get_None in E. apply dict_get_None. intros H. apply E.
    eapply Permutation_in; [|exact H]. apply Permutation_map. now symmetry.
Qed.

End DictLemmas.

(* The module loop and the class loop of __init__ as ONE fold over a flat list
   of items: a module whose import fails, or a class to instantiate. *)

Inductive item := IFail (f : string) | ICls (i : inst).

Definition items_of_module (m : module) : list item :=
  if import_fails m then [IFail (file m)] else map ICls (needed_of m).

Definition items (p : package) : list item := flat_map items_of_module (scanned_modules p).

Fixpoint insts (its : list item) : list inst :=
  match its with
  | [] => []
  | IFail _ :: r => insts r
  | ICls i :: r => i :: insts r
  end.

Fixpoint scan_items (fms : bool) (its : list item) (st : scan) : scan * option error :=
  match its with
  | [] => (st, None)
  | IFail f :: rest => if fms then scan_items fms rest st else (st, Some (ErrImport f))
  | ICls i :: rest =>
    let st1 := mkScan (s_modes st) (s_ctors st ++ [call_of i]) in
    if ctor_raises (icls i) then
      if fms then scan_items fms rest st1 else (st1, Some (ErrCtor (ifile i) (cname (icls i))))
    else if dict_mem (name_of i) (s_modes st1) then
      if fms then scan_items fms rest (mkScan (dict_set (renamed i) i (s_modes st1)) (s_ctors st1))
      else (st1, Some (ErrDuplicate (name_of i) (ifile i)))
    else scan_items fms rest (mkScan (dict_set (name_of i) i (s_modes st1)) (s_ctors st1))
  end.

Lemma scan_items_app : forall fms a b st,
  scan_items fms (a ++ b) st =
  match scan_items fms a st with
  | (st', None) => scan_items fms b st'
  | r => r
  end.
Proof.
  induction a as [|[f|i] a IH]; intros b st; simpl.
  - reflexivity.
  - destruct fms; [apply IH|reflexivity].
  - destruct (ctor_raises (icls i)).
    + destruct fms; [apply IH|reflexivity].
    + destruct (dict_mem (name_of i) _).
      * destruct fms; [apply IH|reflexivity].
      * apply IH.
Qed.

Lemma scan_classes_items : forall fms m cs st,
  scan_classes fms m cs st = scan_items fms (map ICls (map (mkInst (file m)) (filter is_needed cs))) st.
Proof.
  induction cs as [|c cs IH]; intros st; simpl; [reflexivity|].
  unfold is_needed at 1. destruct (mode_name c) as [n|] eqn:En; [|apply IH].
  destruct (disabled c) eqn:Ed; simpl; [apply IH|].
  unfold name_of, renamed, rename_key, call_of; simpl. rewrite En.
  destruct (ctor_raises c).
  - destruct fms; [apply IH|reflexivity].
  - destruct (dict_mem n (s_modes st)).
    + destruct fms; [apply IH|reflexivity].
    + apply IH.
Qed.

Lemma scan_modules_items : forall fms ms st,
  scan_modules fms ms st =
  scan_items fms (flat_map items_of_module (filter (fun m => negb (mname m =? "__init__")) ms)) st.
Proof.
  induction ms as [|m ms IH]; intros st; simpl; [reflexivity|].
  destruct (mname m =? "__init__"); simpl; [apply IH|].
  rewrite scan_items_app. unfold items_of_module at 1.
  destruct (import_fails m); simpl.
  - destruct fms; [apply IH|reflexivity].
  - rewrite scan_classes_items. unfold needed_of.
    destruct (scan_items fms _ st) as [st' [e|]]; [reflexivity|apply IH].
Qed.

Lemma insts_app : forall a b, insts (a ++ b) = insts a ++ insts b.
Proof.
  induction a as [|[f|i] a IH]; intros b; simpl; [reflexivity|apply IH|now rewrite IH].
Qed.

Lemma insts_map_ICls : forall l, insts (map ICls l) = l.
Proof. induction l; simpl; congruence. Qed.

Lemma insts_items : forall p, insts (items p) = needed p.
Proof.
  intros p. unfold items, needed, loaded_modules.
  induction (scanned_modules p) as [|m ms IH]; simpl; [reflexivity|].
  rewrite insts_app, IH. unfold items_of_module.
  destruct (import_fails m); simpl; [reflexivity|].
  now rewrite insts_map_ICls.
Qed.

Lemma import_fault_items : forall p, import_fault p <-> exists f, In (IFail f) (items p).
Proof.
  intros p. unfold import_fault, items. split.
  - intros [m [Hm Hf]]. exists (file m). apply in_flat_map. exists m. split; [assumption|].
    unfold items_of_module. rewrite Hf. now left.
  - intros [f Hin]. apply in_flat_map in Hin as [m [Hm Hi]].
    exists m. split; [assumption|]. unfold items_of_module in Hi.
    destruct (import_fails m); [reflexivity|]. apply in_map_iff in Hi as [? [? ?]]. discriminate.
Qed.

Lemma finish_init_scan : forall fms st,
  match finish_init fms st with
  | Built r => st = mkScan (modes r) (ctor_calls r)
  | Raised _ c => c = s_ctors st
  end.
Proof.
  intros fms [ms cs]. unfold finish_init.
  destruct (fill_chooser _ _ _) as [ch [|d0 [|d1 ds]]]; [| |destruct fms]; reflexivity.
Qed.

(* __init__ is the scan of the items followed by the chooser part -- unless the
   import of the package itself fails and no FMS is attached *)
Lemma discover_scan : forall fms p,
  (fms = false /\ p = PkgInitFails) \/
  discover fms p = match scan_items fms (items p) (mkScan [] []) with
                   | (st, Some e) => Raised e (s_ctors st)
                   | (st, None) => finish_init fms st
                   end.
Proof.
  intros fms [| |ms].
  - now right.
  - destruct fms; [now right|now left].
  - right. unfold discover. now rewrite scan_modules_items.
Qed.

Lemma built_inv : forall fms p r, discover fms p = Built r ->
  scan_items fms (items p) (mkScan [] []) = (mkScan (modes r) (ctor_calls r), None) /\
  finish_init fms (mkScan (modes r) (ctor_calls r)) = Built r.
Proof.
  intros fms p r H. destruct (discover_scan fms p) as [[-> ->]|E]; [discriminate|]. rewrite E in H.
  destruct (scan_items _ _ _) as [st [e|]]; [discriminate|].
  pose proof (finish_init_scan fms st) as Hf. rewrite H in Hf. now subst st.
Qed.

Definition is_prefix {A} (a b : list A) : Prop := exists c, b = a ++ c.

(* every class met is called, whether the call raises or not, and an error
   ends the scan: what was called is a prefix of what there is to call *)
Lemma scan_items_ctors : forall fms its st st' e,
  scan_items fms its st = (st', e) ->
  exists post, s_ctors st ++ map call_of (insts its) = s_ctors st' ++ post /\ (e = None -> post = []).
Proof.
  induction its as [|[f|i] its IH]; intros st st' e H; simpl in H.
  - inversion H; subst. now exists [].
  - destruct fms; [exact (IH _ _ _ H)|]. inversion H; subst. eexists. split; [reflexivity|discriminate].
  - cbn [insts map]. rewrite app_cons_snoc. destruct (ctor_raises (icls i)).
    + destruct fms; [exact (IH _ _ _ H)|]. inversion H. eexists. split; [reflexivity|discriminate].
    + destruct (dict_mem (name_of i) _).
      * destruct fms; [exact (IH _ _ _ H)|]. inversion H. eexists. split; [reflexivity|discriminate].
      * exact (IH _ _ _ H).
Qed.

Theorem built_ctor_calls : forall fms p r,
  discover fms p = Built r -> ctor_calls r = map call_of (needed p).
Proof.
  intros fms p r H. apply built_inv in H as [Hs _].
  apply scan_items_ctors in Hs as (post & Hp & Hn). simpl in Hp.
  now rewrite (Hn eq_refl), app_nil_r, insts_items in Hp.
Qed.

Theorem raised_ctor_calls_prefix : forall fms p e c,
  discover fms p = Raised e c -> is_prefix c (map call_of (needed p)).
Proof.
  intros fms p e c H. destruct (discover_scan fms p) as [[-> ->]|E]; [inversion H; now eexists|].
  rewrite E in H. destruct (scan_items _ _ _) as [st e0] eqn:Hs.
  apply scan_items_ctors in Hs as (post & Hp & _). simpl in Hp. rewrite insts_items in Hp.
  exists post. destruct e0 as [e0|].
  - now inversion H; subst.
  - pose proof (finish_init_scan fms st) as Hf. rewrite H in Hf. now subst c.
Qed.

Definition is_default_kv (kv : string * inst) : bool := is_default (snd kv).

Definition default_keys (ms : list (string * inst)) : list string :=
  map fst (filter is_default_kv (sort_items ms)).

Lemma fill_chooser_snd : forall kvs ch acc,
  snd (fill_chooser kvs ch acc) = acc ++ map fst (filter is_default_kv kvs).
Proof.
  induction kvs as [|[k v] kvs IH]; intros ch acc; simpl.
  - now rewrite app_nil_r.
  - unfold is_default_kv at 1, is_default. simpl. destruct (dflt (icls v)); simpl.
    + rewrite IH, <- app_assoc. reflexivity.
    + apply IH.
Qed.

Definition filled (ms : list (string * inst)) : chooser :=
  add_option "None" None (fst (fill_chooser (sort_items ms) (mkChooser [] "") [])).

Lemma finish_init_unfold : forall fms st,
  finish_init fms st =
  match default_keys (s_modes st) with
  | [] => Built (mkSel (s_modes st) (set_default_option "None" None (filled (s_modes st))) (s_ctors st))
  | [_] => Built (mkSel (s_modes st) (filled (s_modes st)) (s_ctors st))
  | ds => if fms then Built (mkSel (s_modes st) (filled (s_modes st)) (s_ctors st))
          else Raised (ErrDefaults ds) (s_ctors st)
  end.
Proof.
  intros fms st. unfold finish_init, filled, default_keys.
  pose proof (fill_chooser_snd (sort_items (s_modes st)) (mkChooser [] "") []) as H.
  destruct (fill_chooser (sort_items (s_modes st)) (mkChooser [] "") []) as [ch ds].
  simpl in H. subst ds. simpl.
  destruct (map fst (filter is_default_kv (sort_items (s_modes st)))) as [|? [|? ?]]; reflexivity.
Qed.

Lemma default_keys_length : forall ms,
  length (default_keys ms) = length (filter is_default_kv ms).
Proof.
  intros ms. unfold default_keys. rewrite map_length.
  symmetry. apply Permutation_filter_length, sort_items_perm.
Qed.

Lemma filter_default_entries : forall l,
  filter is_default_kv (map entry_of l) = map entry_of (filter is_default l).
Proof.
  induction l as [|i l IH]; simpl; [reflexivity|].
  unfold is_default_kv at 1. simpl. destruct (is_default i); simpl; congruence.
Qed.

Lemma finish_init_nofms : forall st,
  match finish_init false st with
  | Built _ => (length (filter is_default_kv (s_modes st)) < 2)%nat
  | Raised _ _ => (2 <= length (filter is_default_kv (s_modes st)))%nat
  end.
Proof.
  intros st. rewrite finish_init_unfold, <- default_keys_length.
  destruct (default_keys (s_modes st)) as [|? [|? ?]]; simpl; lia.
Qed.

(* a scan that found nothing: a missing package, or one whose import fails with the FMS attached *)
Lemma empty_scan_offers_nothing : forall fms,
  exists r, finish_init fms (mkScan [] []) = Built r /\ offers_nothing r.
Proof. intros fms. eexists. split; [reflexivity|]. repeat split. Qed.

Lemma scan_items_nofms_ok : forall its st st',
  scan_items false its st = (st', None) ->
  (forall f, ~ In (IFail f) its) /\ (forall i, In i (insts its) -> ctor_raises (icls i) = false) /\
  s_modes st' = s_modes st ++ map entry_of (insts its).
Proof.
  induction its as [|[f|i] its IH]; intros st st' H; simpl in H.
  - inversion H; subst. simpl. rewrite app_nil_r.
    split; [intros f []|]. split; [intros i []|reflexivity].
  - discriminate.
  - destruct (ctor_raises (icls i)) eqn:Ec; [discriminate|].
    destruct (dict_mem (name_of i) _) eqn:Em; [discriminate|].
    simpl in Em. apply dict_mem_false in Em.
    apply IH in H as [H1 [H2 H3]]. simpl in H3. repeat split.
    + intros f [Hf|Hf]; [discriminate|]. now apply (H1 f).
    + intros j [Hj|Hj]; [now subst|now apply H2].
    + rewrite H3, dict_set_fresh by assumption. simpl. rewrite <- app_assoc. reflexivity.
Qed.

Lemma scan_items_nofms_err : forall its st st' e,
  scan_items false its st = (st', Some e) ->
  (exists f, In (IFail f) its) \/
  (exists i, In i (insts its) /\ ctor_raises (icls i) = true) \/
  ~ NoDup (map fst (s_modes st) ++ map name_of (insts its)).
Proof.
  induction its as [|[f|i] its IH]; intros st st' e H; simpl in H.
  - discriminate.
  - left. exists f. now left.
  - destruct (ctor_raises (icls i)) eqn:Ec.
    { right. left. exists i. split; [now left|assumption]. }
    destruct (dict_mem (name_of i) _) eqn:Em.
    { right. right. simpl in Em. apply dict_mem_true in Em. simpl.
      intros Hn. apply NoDup_app_iff in Hn as (_ & _ & Hn). apply (Hn (name_of i)); [assumption|now left]. }
    simpl in Em. apply dict_mem_false in Em.
    apply IH in H as [[f Hf]|[[j [Hj Hr]]|Hd]].
    + left. exists f. now right.
    + right. left. exists j. split; [now right|assumption].
    + right. right. simpl in Hd. rewrite dict_set_fresh in Hd by assumption.
      rewrite map_app in Hd. simpl in Hd. rewrite <- app_assoc in Hd. exact Hd.
Qed.

(* self.modes changes only by the assignment of an instance that was really constructed *)
Lemma scan_items_modes_inv (P : list (string * inst) -> Prop) :
  (forall d k i, P d -> ctor_raises (icls i) = false -> P (dict_set k i d)) ->
  forall fms its st st' e, scan_items fms its st = (st', e) -> P (s_modes st) -> P (s_modes st').
Proof.
  intros Hset fms. induction its as [|[f|i] its IH]; intros st st' e H Hp; simpl in H.
  - now inversion H; subst.
  - destruct fms; [eapply IH; eauto | now inversion H; subst].
  - destruct (ctor_raises (icls i)) eqn:Ec.
    + destruct fms; [eapply IH; eauto | now inversion H; subst].
    + destruct (dict_mem _ _).
      * destruct fms; [eapply IH; [exact H|]; simpl; now apply Hset | now inversion H; subst].
      * eapply IH; [exact H|]. simpl. now apply Hset.
Qed.

Lemma built_modes_NoDup : forall fms p r, discover fms p = Built r -> NoDup (map fst (modes r)).
Proof.
  intros fms p r H. apply built_inv in H as [Hs _].
  apply (scan_items_modes_inv (fun d => NoDup (map fst d))
           (fun d k i Hd _ => dict_set_NoDup d k i Hd) _ _ _ _ _ Hs). constructor.
Qed.

Theorem no_fms_built : forall p r,
  discover false p = Built r ->
  p <> PkgInitFails /\ ~ import_fault p /\ ~ ctor_fault p /\ ~ duplicate_names p /\ ~ several_defaults p /\
  modes r = map entry_of (needed p).
Proof.
  intros p r H. pose proof (built_inv _ _ _ H) as [Hs Hf].
  pose proof (built_modes_NoDup _ _ _ H) as E4.
  apply scan_items_nofms_ok in Hs as (E1 & E2 & E3).
  cbn [s_modes app] in E3. rewrite insts_items in *.
  split; [intros ->; discriminate|].
  split; [intros Hi; apply import_fault_items in Hi as [f Hi]; exact (E1 f Hi)|].
  split; [intros [i [Hi Hr]]; rewrite (E2 i Hi) in Hr; discriminate|].
  split; [intros Hd; apply Hd; now rewrite E3, map_map in E4|].
  split; [|exact E3].
  pose proof (finish_init_nofms (mkScan (modes r) (ctor_calls r))) as Hd. rewrite Hf in Hd.
  cbn [s_modes] in Hd. rewrite E3, filter_default_entries, map_length in Hd. unfold several_defaults. lia.
Qed.

Theorem no_fms_raised : forall p e c,
  discover false p = Raised e c ->
  p = PkgInitFails \/ import_fault p \/ ctor_fault p \/ duplicate_names p \/ several_defaults p.
Proof.
  intros p e c H. destruct (discover_scan false p) as [[_ ->]|E]; [now left|]. right. rewrite E in H.
  destruct (scan_items false (items p) (mkScan [] [])) as [st [e0|]] eqn:Hs.
  - apply scan_items_nofms_err in Hs. rewrite insts_items in Hs. destruct Hs as [Hf|[Hc|Hd]].
    + left. now apply import_fault_items.
    + right. now left.
    + right. right. now left.
  - right. right. right. apply scan_items_nofms_ok in Hs as (_ & _ & E3).
    simpl in E3. rewrite insts_items in E3.
    pose proof (finish_init_nofms st) as Hd. now rewrite H, E3, filter_default_entries, map_length in Hd.
Qed.

Theorem no_fms_raises_iff : forall p,
  (exists e c, discover false p = Raised e c) <->
  (package_fault p \/ import_fault p \/ ctor_fault p \/ duplicate_names p \/ several_defaults p).
Proof.
  unfold package_fault. intros p; split.
  - intros [e [c H]]. eapply no_fms_raised; eauto.
  - intros Hf. destruct (discover false p) as [r|e c] eqn:E; [|eauto].
    exfalso. apply no_fms_built in E as [E0 [E1 [E2 [E3 [E4 _]]]]].
    destruct Hf as [H|[H|[H|[H|H]]]]; auto.
Qed.

Lemma scan_items_fms_ok : forall its st, exists st', scan_items true its st = (st', None).
Proof.
  induction its as [|[f|i] its IH]; intros st; simpl; eauto.
  destruct (ctor_raises (icls i)); [apply IH|]. destruct (dict_mem _ _); apply IH.
Qed.

Lemma finish_init_fms_built : forall st, exists r, finish_init true st = Built r.
Proof.
  intros st. rewrite finish_init_unfold.
  destruct (default_keys (s_modes st)) as [|d0 [|d1 ds]]; eauto.
Qed.

Theorem fms_never_raises : forall p, exists r, discover true p = Built r.
Proof.
  intros p. destruct (discover_scan true p) as [[E _]|E]; [discriminate|]. rewrite E.
  destruct (scan_items_fms_ok (items p) (mkScan [] [])) as [st' ->]. apply finish_init_fms_built.
Qed.

Theorem built_modes_constructed : forall fms p r,
  discover fms p = Built r ->
  forall k i, In (k, i) (modes r) -> ctor_raises (icls i) = false.
Proof.
  intros fms p r H. apply built_inv in H as [Hs _].
  set (P := fun d : list (string * inst) => forall k i, In (k, i) d -> ctor_raises (icls i) = false).
  assert (Hset : forall d k i, P d -> ctor_raises (icls i) = false -> P (dict_set k i d)).
  { intros d k i Hd Hc k' j Hin. apply dict_set_In in Hin.
    destruct Hin as [Hin|Hin]; [now inversion Hin; subst|eauto]. }
  apply (scan_items_modes_inv P Hset _ _ _ _ _ Hs). intros k i [].
Qed.

(* With the FMS attached, under [no_key_clash] for the instances still to come,
   none of whose artificial keys is in self.modes yet: every key assigned
   (MODE_NAME, or the artificial key when that is taken) is fresh, so each
   [dict_set] is an append ([dict_set_fresh]) and never overwrites -- self.modes
   grows by the healthy instances, in scan order, each under one of its two keys. *)
Lemma scan_items_fms_modes : forall its st st',
  scan_items true its st = (st', None) ->
  NoDup (map renamed (insts its)) ->
  (forall i j, In i (insts its) -> In j (insts its) -> name_of i <> renamed j) ->
  (forall k i, In k (map fst (s_modes st)) -> In i (insts its) -> k <> renamed i) ->
  exists kl, s_modes st' = s_modes st ++ kl /\ map snd kl = filter healthy (insts its) /\
             (forall k i, In (k, i) kl -> k = name_of i \/ k = renamed i).
Proof.
  induction its as [|[f|i] its IH]; intros st st' H Hr Hc Hk; simpl in H.
  - inversion H; subst. exists []. simpl. rewrite app_nil_r. repeat split. intros k i [].
  - apply IH in H; auto.
  - simpl in Hr. inversion Hr as [|? ? Hr1 Hr2]; subst.
    assert (Hc' : forall a b, In a (insts its) -> In b (insts its) -> name_of a <> renamed b).
    { intros a b Ha Hb. apply Hc; now right. }
    simpl. unfold healthy at 1.
    destruct (ctor_raises (icls i)) eqn:Ec; simpl.
    { apply IH in H; auto. intros k j Hk1 Hj. apply Hk; [assumption|now right]. }
    (* storing i under a fresh key k, either of the two *)
    assert (Hfresh : forall k, ~ In k (map fst (s_modes st)) ->
              (k = name_of i \/ k = renamed i) ->
              scan_items true its (mkScan (dict_set k i (s_modes st)) (s_ctors st ++ [call_of i])) = (st', None) ->
              exists kl, s_modes st' = s_modes st ++ kl /\ map snd kl = i :: filter healthy (insts its) /\
                         (forall k' j, In (k', j) kl -> k' = name_of j \/ k' = renamed j)).
    { intros k Hnk Hko H0. apply IH in H0; auto.
      - destruct H0 as [kl [H1 [H2 H3]]]. simpl in H1. rewrite dict_set_fresh in H1 by assumption.
        exists ((k, i) :: kl). split; [now rewrite H1, <- app_assoc|]. split; [simpl; now rewrite H2|].
        intros k' j [E|Hin]; [inversion E; subst; exact Hko|now apply H3].
      - simpl. intros k' j Hk' Hj. apply dict_set_keys in Hk' as [Hk'|Hk'].
        + subst k'. destruct Hko as [Hko|Hko]; subst k.
          * apply Hc; [now left|now right].
          * intros Heq. apply Hr1. rewrite Heq. now apply in_map.
        + apply Hk; [assumption|now right]. }
    destruct (dict_mem (name_of i) _) eqn:Em; simpl in Em.
    + apply (Hfresh (renamed i)); [|now right|exact H].
      intros Hin. apply (Hk (renamed i) i); [assumption|now left|reflexivity].
    + apply dict_mem_false in Em. apply (Hfresh (name_of i)); [assumption|now left|exact H].
Qed.

Theorem fms_modes : forall p r,
  discover true p = Built r -> no_key_clash p ->
  (forall i, In i (needed p) -> healthy i = true ->
     exists k, (k = name_of i \/ k = renamed i) /\ dict_get k (modes r) = Some i) /\
  (forall k i, dict_get k (modes r) = Some i ->
     In i (needed p) /\ healthy i = true /\ (k = name_of i \/ k = renamed i)).
Proof.
  intros p r H [Hc1 Hc2].
  pose proof (built_modes_NoDup _ _ _ H) as Hnd.
  apply built_inv in H as [Hs _]. rewrite <- insts_items in Hc1, Hc2.
  apply scan_items_fms_modes in Hs; [|exact Hc1|exact Hc2|intros k i []].
  destruct Hs as [kl [E1 [E2 E3]]]. cbn [s_modes app] in E1. rewrite insts_items in E2. rewrite E1 in *.
  split.
  - intros i Hi Hh.
    assert (Hin : In i (map snd kl)) by (rewrite E2; apply filter_In; auto).
    apply in_map_iff in Hin as [[k i'] [Hs Hin]]. simpl in Hs. subst i'.
    exists k. split; [exact (E3 _ _ Hin)|now apply dict_get_NoDup_In].
  - intros k i Hg. apply dict_get_In in Hg.
    assert (Hin : In i (map snd kl)) by (apply in_map_iff; now exists (k, i)).
    rewrite E2 in Hin. apply filter_In in Hin as [Hi Hh].
    split; [exact Hi|]. split; [exact Hh|exact (E3 _ _ Hg)].
Qed.

Lemma fill_chooser_get : forall kvs ch acc k, NoDup (map fst kvs) ->
  dict_get k (options (fst (fill_chooser kvs ch acc))) =
  match dict_get k kvs with Some v => Some (Some v) | None => dict_get k (options ch) end.
Proof.
  induction kvs as [|[k0 v0] kvs IH]; intros ch acc k Hn; simpl; [reflexivity|].
  inversion Hn as [|? ? Hn1 Hn2]; subst.
  (* both branches assign options[k0] = v0; they differ in the default only *)
  assert (Hstep : forall ch' acc', options ch' = dict_set k0 (Some v0) (options ch) ->
            dict_get k (options (fst (fill_chooser kvs ch' acc'))) =
            match (if k0 =? k then Some v0 else dict_get k kvs) with
            | Some v => Some (Some v)
            | None => dict_get k (options ch)
            end).
  { intros ch' acc' Ho. rewrite IH, Ho, dict_get_set by assumption.
    destruct (k0 =? k) eqn:E; [|reflexivity].
    (* k0 is not a key of the rest, so nothing later overwrites it *)
    apply String.eqb_eq in E. subst k. apply dict_get_None in Hn1. now rewrite Hn1. }
  destruct (dflt (icls v0)).
  - now apply Hstep.
  - now apply Hstep.
Qed.

Lemma last_indep {A} : forall (l : list A) b d d', last (b :: l) d = last (b :: l) d'.
Proof. induction l as [|c l IH]; intros b d d'; [reflexivity|]. simpl in *. apply (IH c). Qed.

Lemma last_cons {A} : forall (l : list A) a d, last (a :: l) d = last l a.
Proof. intros [|b l] a d; [reflexivity|]. change (last (a :: b :: l) d) with (last (b :: l) d). apply last_indep. Qed.

Lemma fill_chooser_default : forall kvs ch acc,
  cdefault (fst (fill_chooser kvs ch acc)) = last (map fst (filter is_default_kv kvs)) (cdefault ch).
Proof.
  induction kvs as [|[k0 v0] kvs IH]; intros ch acc; simpl; [reflexivity|].
  unfold is_default_kv at 1, is_default. simpl. destruct (dflt (icls v0)); simpl.
  - rewrite IH. simpl. destruct (map fst (filter is_default_kv kvs)) as [|b l]; [reflexivity|]. apply last_indep.
  - now rewrite IH.
Qed.

Lemma filled_get : forall ms k, NoDup (map fst ms) ->
  dict_get k (options (filled ms)) =
  if "None" =? k then Some None else option_map Some (dict_get k ms).
Proof.
  intros ms k Hn. unfold filled, add_option. cbn [options]. rewrite dict_get_set.
  destruct ("None" =? k); [reflexivity|].
  rewrite fill_chooser_get.
  - rewrite (dict_get_perm ms (sort_items ms) k Hn (sort_items_perm ms)). cbn [options dict_get].
    destruct (dict_get k ms); reflexivity.
  - eapply Permutation_NoDup; [|exact Hn]. apply Permutation_map, sort_items_perm.
Qed.

Lemma built_chooser : forall fms p r, discover fms p = Built r ->
  (chooser_of r = filled (modes r) /\ default_keys (modes r) <> []) \/
  (chooser_of r = set_default_option "None" None (filled (modes r)) /\ default_keys (modes r) = []).
Proof.
  intros fms p r H. apply built_inv in H as [_ H]. rewrite finish_init_unfold in H. cbn [s_modes s_ctors] in H.
  destruct (default_keys (modes r)) as [|d0 [|d1 ds]].
  - right. injection H as H. apply (f_equal chooser_of) in H. now split.
  - left. injection H as H. apply (f_equal chooser_of) in H. now split.
  - left. destruct fms; [|discriminate]. injection H as H. apply (f_equal chooser_of) in H. now split.
Qed.

Theorem built_options : forall fms p r, discover fms p = Built r ->
  forall k, dict_get k (options (chooser_of r)) =
            if "None" =? k then Some None else option_map Some (dict_get k (modes r)).
Proof.
  intros fms p r H k. pose proof (built_modes_NoDup _ _ _ H) as Hn.
  destruct (built_chooser _ _ _ H) as [[Hc _]|[Hc _]]; rewrite Hc.
  - now apply filled_get.
  - unfold set_default_option. cbn [options]. rewrite dict_get_set.
    rewrite filled_get by assumption. destruct ("None" =? k); reflexivity.
Qed.

Theorem built_option_names : forall fms p r, discover fms p = Built r ->
  forall k, In k (option_names r) <-> k = "None" \/ In k (map fst (modes r)).
Proof.
  intros fms p r H k. unfold option_names. rewrite dict_get_not_None_In.
  rewrite (built_options _ _ _ H). destruct ("None" =? k) eqn:E.
  - apply String.eqb_eq in E. subst. split; [now left|discriminate].
  - apply String.eqb_neq in E. rewrite dict_get_not_None_In.
    destruct (dict_get k (modes r)); simpl; split.
    + intros _. right. discriminate.
    + discriminate.
    + intros Hx. now contradiction Hx.
    + intros [Hx|Hx]; [now subst|now contradiction Hx].
Qed.

Lemma default_keys_In : forall ms k, In k (default_keys ms) ->
  exists i, In (k, i) ms /\ is_default i = true.
Proof.
  intros ms k Hin. unfold default_keys in Hin.
  apply in_map_iff in Hin as ([k' i] & <- & Hin). apply filter_In in Hin as [Hin Hd].
  exists i. split; [|exact Hd].
  eapply Permutation_in; [symmetry; apply sort_items_perm|exact Hin].
Qed.

Lemma last_In {A} : forall (l : list A) d, l <> [] -> In (last l d) l.
Proof.
  induction l as [|a l IH]; intros d H; [congruence|].
  destruct l as [|b l]; [now left|]. right. apply IH. discriminate.
Qed.

(* the preselected option is the DEFAULT mode whose key sorts last *)
Theorem preselection_last_default : forall fms p r, discover fms p = Built r ->
  preselection r = last (default_keys (modes r)) "None".
Proof.
  intros fms p r H. unfold preselection. destruct (built_chooser _ _ _ H) as [[-> Hne]|[-> ->]]; [|reflexivity].
  unfold filled, add_option. cbn [cdefault]. rewrite fill_chooser_default. fold (default_keys (modes r)).
  destruct (default_keys (modes r)); [contradiction|apply last_indep].
Qed.

Theorem built_preselection : forall fms p r, discover fms p = Built r ->
  match filter is_default_kv (modes r) with
  | [] => preselection r = "None"
  | [(k, i)] => preselection r = k
  | _ => exists k i, In (k, i) (modes r) /\ is_default i = true /\ preselection r = k
  end.
Proof.
  intros fms p r H. rewrite (preselection_last_default _ _ _ H).
  pose proof (default_keys_length (modes r)) as Hl.
  destruct (default_keys (modes r)) as [|d ds] eqn:Ed.
  { destruct (filter is_default_kv (modes r)); [reflexivity|discriminate Hl]. }
  assert (Hin : In (last (d :: ds) "None") (default_keys (modes r))) by (rewrite Ed; now apply last_In).
  apply default_keys_In in Hin as (i & Hi & Hd).
  assert (Hf : In (last (d :: ds) "None", i) (filter is_default_kv (modes r))) by (apply filter_In; auto).
  destruct (filter is_default_kv (modes r)) as [|[k0 i0] [|kv l]].
  - discriminate Hl.
  - destruct Hf as [Hf|[]]. now inversion Hf.
  - eauto.
Qed.

Theorem select_dashboard : forall r a c m,
  dict_get a (modes r) = Some m -> select r (Some a, c) = Some m.
Proof. intros r a c m H. unfold select. simpl. now rewrite H. Qed.

Theorem select_chooser : forall r d c,
  (forall a, d = Some a -> dict_get a (modes r) = None) ->
  select r (d, c) = chooser_selected (chooser_of r) c.
Proof.
  intros r [a|] c H; unfold select; simpl; [|reflexivity].
  now rewrite (H a eq_refl).
Qed.

Theorem chooser_selected_built : forall fms p r, discover fms p = Built r -> forall c,
  chooser_selected (chooser_of r) c =
  let name := match c with Some s => s | None => preselection r end in
  if (name =? "") || (name =? "None") then None else dict_get name (modes r).
Proof.
  intros fms p r H c. unfold chooser_selected, preselection.
  set (name := match c with Some s => s | None => cdefault (chooser_of r) end).
  cbv zeta. destruct (name =? ""); [reflexivity|]. cbn [orb].
  rewrite (built_options _ _ _ H). rewrite (String.eqb_sym "None" name).
  destruct (name =? "None"); [reflexivity|].
  destruct (dict_get name (modes r)); reflexivity.
Qed.

Lemma in_needed : forall p i,
  In i (needed p) <->
  exists m c, In m (loaded_modules p) /\ In c (classes m) /\ is_needed c = true /\ i = mkInst (file m) c.
Proof.
  intros p i. unfold needed. rewrite in_flat_map. split.
  - intros [m [Hm Hi]]. unfold needed_of in Hi. apply in_map_iff in Hi as [c [Hc Hi]].
    apply filter_In in Hi. exists m, c. intuition.
  - intros [m [c [Hm [Hc [Hn Hi]]]]]. exists m. split; [assumption|]. unfold needed_of.
    apply in_map_iff. exists c. split; [auto|]. apply filter_In. auto.
Qed.

Lemma in_loaded_modules : forall ms m,
  In m (loaded_modules (PkgPresent ms)) <-> In m ms /\ mname m <> "__init__" /\ import_fails m = false.
Proof.
  intros ms m. unfold loaded_modules, scanned_modules.
  rewrite !filter_In, !negb_true_iff, String.eqb_neq. apply and_assoc.
Qed.

(* what is called, whatever the layout *)
Lemma built_calls_in : forall fms p r, discover fms p = Built r ->
  forall x, In x (ctor_calls r) <->
    exists m c, In m (loaded_modules p) /\ In c (classes m) /\ is_needed c = true /\ x = (file m, cname c).
Proof.
  intros fms p r H x. rewrite (built_ctor_calls _ _ _ H), in_map_iff. split.
  - intros (i & <- & Hi). apply in_needed in Hi as (m & c & Hm & Hc & Hn & ->). now exists m, c.
  - intros (m & c & Hm & Hc & Hn & ->). exists (mkInst (file m) c). split; [reflexivity|].
    apply in_needed. now exists m, c.
Qed.

(* "once each": a class is identified by (file, member name) *)
Lemma needed_calls_NoDup : forall p, layout_ok p -> NoDup (map call_of (needed p)).
Proof.
  intros p [Hf Hc]. apply NoDup_map_flat_map with (key := file).
  - now apply NoDup_map_filter.
  - intros m Hm. apply filter_In in Hm. unfold needed_of. rewrite map_map.
    apply NoDup_map_on with (f := cname); [apply NoDup_map_filter, Hc, Hm|].
    intros c c' _ _ E. now inversion E.
  - intros m m' i i' _ _ Hi Hi' E. unfold needed_of in Hi, Hi'.
    apply in_map_iff in Hi as (c & <- & _). apply in_map_iff in Hi' as (c' & <- & _). now inversion E.
Qed.

(* "instantiates, once each, exactly the classes ... that define MODE_NAME
   and are not marked DISABLED" *)
Theorem instantiated_exactly : forall fms p r,
  discover fms p = Built r -> layout_ok p ->
  NoDup (ctor_calls r) /\
  (forall m c, In m (loaded_modules p) -> In c (classes m) ->
     (In (file m, cname c) (ctor_calls r) <-> is_needed c = true)) /\
  (forall x, In x (ctor_calls r) ->
     exists m c, In m (loaded_modules p) /\ In c (classes m) /\ x = (file m, cname c)).
Proof.
  intros fms p r H Hl. pose proof (built_calls_in _ _ _ H) as Hin.
  split; [rewrite (built_ctor_calls _ _ _ H); now apply needed_calls_NoDup|]. split.
  - intros m c Hm Hc. rewrite Hin. split; [|intros Hn; now exists m, c].
    (* the pair (file, member name) determines the module and then the class *)
    intros (m' & c' & Hm' & Hc' & Hn & E). inversion E as [[Hf Hcn]]. destruct Hl as [Hl1 Hl2].
    assert (Hs : forall x, In x (loaded_modules p) -> In x (scanned_modules p)).
    { intros x Hx. unfold loaded_modules in Hx. apply filter_In in Hx. tauto. }
    assert (m' = m) by (eapply NoDup_map_In_inj; [exact Hl1| | |]; auto). subst m'.
    assert (c' = c) by (eapply NoDup_map_In_inj; [apply (Hl2 m); auto| | |]; auto). now subst c'.
  - intros x Hx. apply Hin in Hx as (m & c & Hm & Hc & _ & E). now exists m, c.
Qed.

(* without FMS: keyed by MODE_NAME, and the flagged mode is preselected *)
Theorem keyed_by_mode_name : forall p r,
  discover false p = Built r ->
  modes r = map entry_of (needed p) /\
  match filter is_default (needed p) with
  | [] => preselection r = "None"
  | [i] => preselection r = name_of i
  | _ => False
  end.
Proof.
  intros p r H. pose proof (no_fms_built _ _ H) as [_ [_ [_ [_ [Hs Hm]]]]].
  split; [assumption|].
  pose proof (built_preselection _ _ _ H) as Hp. rewrite Hm, filter_default_entries in Hp.
  unfold several_defaults in Hs.
  destruct (filter is_default (needed p)) as [|i [|j l]]; simpl in *; auto. lia.
Qed.

Theorem fms_tolerates : forall p,
  exists r, discover true p = Built r /\
    (no_key_clash p ->
     forall i, In i (needed p) -> healthy i = true ->
       exists k, (k = name_of i \/ k = renamed i) /\
                 dict_get k (modes r) = Some i /\
                 In k (option_names r) /\
                 (choosable k -> chooser_selected (chooser_of r) (Some k) = Some i)).
Proof.
  intros p. destruct (fms_never_raises p) as [r Hr]. exists r. split; [assumption|].
  intros Hc i Hi Hh. destruct (fms_modes _ _ Hr Hc) as [H1 _].
  destruct (H1 i Hi Hh) as [k [Hk Hg]]. exists k. repeat split; auto.
  - apply (built_option_names _ _ _ Hr). right. apply dict_get_not_None_In. congruence.
  - intros [Hn He]. rewrite (chooser_selected_built _ _ _ Hr). cbv zeta.
    apply String.eqb_neq in Hn. apply String.eqb_neq in He. rewrite Hn, He. exact Hg.
Qed.

(* A class with MODE_NAME, not DISABLED, of an importable module, whose call
   raises -- [ctor_raises] says nothing about WHY it raises (__init__, __new__,
   the metaclass, an abstract class, missing arguments):
   without FMS start-up raises; with FMS the call is made all the same (that is
   how the failure is found), the class is not offered, and every healthy mode
   still is. *)
Theorem failing_constructor_policy : forall p i,
  In i (needed p) -> ctor_raises (icls i) = true ->
  (exists e c, discover false p = Raised e c) /\
  (exists r, discover true p = Built r /\
     In (call_of i) (ctor_calls r) /\
     (forall k j, In (k, j) (modes r) -> ctor_raises (icls j) = false) /\
     (no_key_clash p ->
      forall j, In j (needed p) -> healthy j = true ->
        exists k, (k = name_of j \/ k = renamed j) /\
                  dict_get k (modes r) = Some j /\
                  In k (option_names r) /\
                  (choosable k -> chooser_selected (chooser_of r) (Some k) = Some j))).
Proof.
  intros p i Hi Hc. split.
  - apply no_fms_raises_iff. right. right. left. exists i. auto.
  - destruct (fms_tolerates p) as [r [Hr Ht]]. exists r. split; [exact Hr|]. split.
    + rewrite (built_ctor_calls _ _ _ Hr). now apply in_map.
    + split; [exact (built_modes_constructed _ _ _ Hr)|exact Ht].
Qed.

Lemma fails_iff : forall b, fails b = true <-> b <> Constructs.
Proof. intros []; simpl; split; congruence. Qed.

(* [dotted_prefix] is a disjunction; these equations follow it through the two
   names character by character, as the startswith test of the code goes *)
Lemma dotted_prefix_nil : forall p, dotted_prefix "" p <-> p = "" \/ exists rest, p = String "." rest.
Proof. intros p. unfold dotted_prefix. simpl. split; (intros [H|H]; [left; now symmetry|now right]). Qed.

Lemma dotted_prefix_cons : forall x n y p,
  dotted_prefix (String x n) (String y p) <-> x = y /\ dotted_prefix n p.
Proof.
  intros x n y p. unfold dotted_prefix. simpl. split.
  - intros [H|[rest H]]; inversion H; subst; eauto.
  - intros [-> [->|[rest ->]]]; eauto.
Qed.

Lemma dotted_prefix_app : forall a n p, dotted_prefix (a ++ n)%string (a ++ p)%string <-> dotted_prefix n p.
Proof. induction a as [|c a IH]; intros n p; simpl; [reflexivity|]. rewrite dotted_prefix_cons, IH. tauto. Qed.

(* (pkgname + ".").startswith(n + ".")  <->  n is the package or a package it is nested in *)
Lemma dotted_prefix_iff : forall n pkgname,
  prefix (n ++ ".")%string (pkgname ++ ".")%string = true <-> dotted_prefix n pkgname.
Proof.
  induction n as [|x n IH]; intros [|y p].
  - split; [now left|reflexivity].
  - rewrite dotted_prefix_nil. cbn [append prefix]. destruct (ascii_dec "." y) as [<-|N].
    + split; [eauto|now destruct (p ++ ".")%string].
    + split; [discriminate|]. intros [H|[rest H]]; inversion H. now contradiction N.
  - split; [|intros [H|[rest H]]; discriminate H]. cbn [append prefix].
    destruct (ascii_dec x "."); [now destruct n|discriminate].
  - rewrite dotted_prefix_cons, <- IH. cbn [append prefix]. destruct (ascii_dec x y); [tauto|].
    split; [discriminate|tauto].
Qed.

Lemma names_the_package_iff : forall pkgname mnf ename,
  names_the_package pkgname mnf ename = true <->
  no_such_package pkgname (ImportRaisesImportError mnf ename).
Proof.
  intros pkgname mnf ename. unfold names_the_package, no_such_package. split.
  - intros H. apply andb_true_iff in H as [Hm H]. subst mnf.
    destruct ename as [n|]; [|discriminate]. exists n. split; [reflexivity|]. now apply dotted_prefix_iff.
  - intros [n [H Hd]]. inversion H; subst. simpl. now apply dotted_prefix_iff.
Qed.

(* the ImportError branch: "no such package" (a ModuleNotFoundError naming the
   package or a package it is nested in) is a warning only, FMS or not; every
   other ImportError is raised without FMS *)
Theorem import_error_policy : forall pkgname mnf ename,
  (~ no_such_package pkgname (ImportRaisesImportError mnf ename) ->
     init false pkgname (ImportRaisesImportError mnf ename) = Raised ErrPackage []) /\
  (no_such_package pkgname (ImportRaisesImportError mnf ename) ->
     forall fms, exists r, init fms pkgname (ImportRaisesImportError mnf ename) = Built r /\ offers_nothing r).
Proof.
  intros pkgname mnf ename. unfold init, import_outcome. split.
  - intros H. destruct (names_the_package pkgname mnf ename) eqn:E; [|reflexivity].
    apply names_the_package_iff in E. contradiction.
  - intros H fms. apply names_the_package_iff in H. rewrite H. apply empty_scan_offers_nothing.
Qed.

(* an ImportError that is not a ModuleNotFoundError comes from the package's own
   code ("from . import helper", "from os import nothing", raise ImportError):
   raised without FMS whatever name it carries -- the package's own name included *)
Theorem plain_import_error_raises : forall pkgname ename,
  init false pkgname (ImportRaisesImportError false ename) = Raised ErrPackage [].
Proof.
  intros pkgname ename. apply import_error_policy. intros [n [H _]]. discriminate.
Qed.

(* a ModuleNotFoundError without a name: raised *)
Theorem nameless_module_not_found_raises : forall pkgname,
  init false pkgname (ImportRaisesImportError true None) = Raised ErrPackage [].
Proof.
  intros pkgname. apply import_error_policy. intros [n [H _]]. discriminate.
Qed.

(* a package missing at ANY level of the dotted name -- the first component, one
   in the middle, the package itself -- is a missing package: tolerated, FMS or
   not, nothing but "None" offered *)
Theorem missing_package_at_any_level_tolerated : forall fms pkgname n,
  dotted_prefix n pkgname ->
  exists r, init fms pkgname (ImportRaisesImportError true (Some n)) = Built r /\ offers_nothing r.
Proof.
  intros fms pkgname n H. apply import_error_policy. exists n. auto.
Qed.

(* a missing module that is not the package or a package it is nested in: a
   failing import, raised without FMS *)
Theorem missing_other_module_raises : forall pkgname n,
  ~ dotted_prefix n pkgname ->
  init false pkgname (ImportRaisesImportError true (Some n)) = Raised ErrPackage [].
Proof.
  intros pkgname n H. apply import_error_policy. intros [n' [E Hd]]. inversion E; subst. contradiction.
Qed.

(* the package's __init__ needs one of its own sub-modules that does not exist
   ("from .helper import X", "import pkg.helper") *)
Theorem missing_submodule_raises : forall pkgname sub,
  init false pkgname (ImportRaisesImportError true (Some (pkgname ++ "." ++ sub)%string)) = Raised ErrPackage [].
Proof.
  intros pkgname sub. apply missing_other_module_raises. induction pkgname as [|c p IH]; simpl.
  - intros [H|[rest H]]; discriminate H.
  - rewrite dotted_prefix_cons. tauto.
Qed.

(* ... or a module of its parent package that does not exist ("import robot.helpers"
   in robot/autonomous/__init__.py): raised unless it is a package the autonomous
   package is nested in *)
Theorem missing_sibling_raises : forall top rest sub,
  ~ dotted_prefix sub rest ->
  init false (top ++ "." ++ rest)%string (ImportRaisesImportError true (Some (top ++ "." ++ sub)%string))
  = Raised ErrPackage [].
Proof.
  intros top rest sub Hs. apply missing_other_module_raises.
  rewrite dotted_prefix_app. cbn [append]. rewrite dotted_prefix_cons. tauto.
Qed.

Lemma package_fault_import_outcome : forall pkgname i,
  package_fault (import_outcome pkgname i) <-> package_import_fault pkgname i.
Proof.
  intros pkgname i. unfold package_fault, package_import_fault, import_outcome. destruct i as [mnf ename| |ms|path].
  - destruct (names_the_package pkgname mnf ename) eqn:E.
    + apply names_the_package_iff in E. split; [discriminate|]. intros [_ H]. contradiction.
    + split; [|reflexivity]. intros _. split; [right; eauto|].
      intros H. apply names_the_package_iff in H. congruence.
  - split; [|reflexivity]. intros _. split; [now left|]. intros [n [H _]]. discriminate.
  - split; [discriminate|]. intros [[H|[m [e H]]] _]; discriminate.
  - split; [discriminate|]. intros [[H|[m [e H]]] _]; discriminate.
Qed.

Theorem init_no_fms_raises_iff : forall pkgname i,
  let p := import_outcome pkgname i in
  (exists e c, init false pkgname i = Raised e c) <->
  (package_import_fault pkgname i \/ import_fault p \/ ctor_fault p \/ duplicate_names p \/ several_defaults p).
Proof.
  intros pkgname i p. unfold init. fold p. rewrite no_fms_raises_iff.
  unfold p. rewrite package_fault_import_outcome. reflexivity.
Qed.

(* [dedup_dirs] (by directory) and [unique_names] (by module name) are one
   loop: keep the first entry of every key, given the keys seen so far. *)
Fixpoint first_by {A} (key : A -> string) (seen : list string) (l : list A) : list A :=
  match l with
  | [] => []
  | x :: r => if existsb (String.eqb (key x)) seen then first_by key seen r
              else x :: first_by key (key x :: seen) r
  end.

Lemma dedup_dirs_first_by : forall path seen, dedup_dirs seen path = first_by pdir seen path.
Proof. induction path as [|a path IH]; intros seen; simpl; [reflexivity|]. now rewrite !IH. Qed.

Lemma unique_names_first_by : forall l seen, unique_names seen l = first_by mname seen l.
Proof. induction l as [|a l IH]; intros seen; simpl; [reflexivity|]. now rewrite !IH. Qed.

Lemma existsb_eqb_In : forall d seen, existsb (String.eqb d) seen = true <-> In d seen.
Proof.
  intros d seen. rewrite existsb_exists. split.
  - intros [x [Hx He]]. apply String.eqb_eq in He. now subst.
  - intros H. exists d. split; [assumption|apply String.eqb_refl].
Qed.

Lemma existsb_eqb_not_In : forall d seen, existsb (String.eqb d) seen = false <-> ~ In d seen.
Proof.
  intros d seen. rewrite <- existsb_eqb_In. destruct (existsb _ _); split; congruence.
Qed.

Section FirstBy.
Context {A : Type} (key : A -> string).

Lemma first_by_sound : forall l seen x,
  In x (first_by key seen l) -> In x l /\ ~ In (key x) seen.
Proof.
  induction l as [|a l IH]; intros seen x H; simpl in H; [contradiction|].
  destruct (existsb _ _) eqn:E.
  - apply IH in H. destruct H. split; [now right|assumption].
  - destruct H as [H|H].
    + subst. split; [now left|]. now apply existsb_eqb_not_In.
    + apply IH in H as [H1 H2]. split; [now right|]. intros Hin. apply H2. now right.
Qed.

Lemma first_by_NoDup : forall l seen, NoDup (map key (first_by key seen l)).
Proof.
  induction l as [|a l IH]; intros seen; simpl; [constructor|].
  destruct (existsb _ _); [apply IH|]. simpl. constructor; [|apply IH].
  intros Hin. apply in_map_iff in Hin as [x [He Hin]].
  apply first_by_sound in Hin as [_ Hn]. apply Hn. left. now symmetry.
Qed.

Lemma first_by_complete : forall l seen x,
  In x l -> ~ In (key x) seen -> In (key x) (map key (first_by key seen l)).
Proof.
  induction l as [|a l IH]; intros seen x H Hn; [contradiction|]. simpl.
  destruct (existsb _ _) eqn:E.
  - destruct H as [H|H]; [subst; apply existsb_eqb_In in E; contradiction|now apply IH].
  - simpl. destruct H as [H|H]; [subst; now left|].
    destruct (string_dec (key a) (key x)) as [Heq|Hne]; [now left|].
    right. apply IH; [assumption|]. intros [Hin|Hin]; contradiction.
Qed.

Lemma first_by_NoDup_map {B} (f : A -> B) : forall l seen,
  NoDup (map f l) -> NoDup (map f (first_by key seen l)).
Proof.
  induction l as [|a l IH]; intros seen H; simpl; [constructor|].
  inversion H as [|? ? Hn Hd]; subst. destruct (existsb _ _); [now apply IH|].
  simpl. constructor; [|now apply IH]. intros Hin. apply Hn.
  apply in_map_iff in Hin as [x [He Hin]]. apply first_by_sound in Hin.
  apply in_map_iff. exists x. tauto.
Qed.

Lemma first_by_skip : forall l seen x r,
  (In (key x) seen \/ exists y, In y l /\ key y = key x) ->
  first_by key seen (l ++ x :: r) = first_by key seen (l ++ r).
Proof.
  induction l as [|a l IH]; intros seen x r H; simpl.
  - destruct H as [H|[y [[] _]]]. apply existsb_eqb_In in H. now rewrite H.
  - destruct (existsb (String.eqb (key a)) seen) eqn:E.
    + apply IH. destruct H as [H|[y [[Hy|Hy] He]]].
      * now left.
      * subst a. left. rewrite <- He. now apply existsb_eqb_In.
      * right. now exists y.
    + f_equal. apply IH. destruct H as [H|[y [[Hy|Hy] He]]].
      * left. now right.
      * subst a. left. left. exact He.
      * right. now exists y.
Qed.

End FirstBy.

(* list(set(__path__)): every directory of __path__, once *)
Theorem path_dirs_set : forall path,
  NoDup (map pdir (path_dirs path)) /\
  (forall po, In po (path_dirs path) -> In po path) /\
  (forall d, In d (map pdir path) <-> In d (map pdir (path_dirs path))).
Proof.
  intros path. unfold path_dirs. rewrite dedup_dirs_first_by. split; [apply first_by_NoDup|]. split.
  - intros po H. now apply first_by_sound in H.
  - intros d. split; intros H; apply in_map_iff in H; destruct H as [po [He H]]; subst.
    + apply first_by_complete; [assumption|intros []].
    + apply first_by_sound in H. apply in_map. tauto.
Qed.

(* the files globbed for an implicit package: the files of its directories,
   each ONCE, whatever __path__ repeats *)
Lemma path_files_once : forall path, path_ok path ->
  NoDup (map file (path_files path)) /\
  (forall m, In m (path_files path) <-> in_path path m).
Proof.
  intros path [Hsame [Hdisj Hnd]].
  destruct (path_dirs_set path) as [H1 [H2 H3]]. unfold path_files. split.
  - apply NoDup_map_flat_map with (key := pdir); [assumption| |].
    + intros a Ha. apply Hnd. now apply H2.
    + intros a b m n Ha Hb. apply Hdisj; now apply H2.
  - intros m. rewrite in_flat_map. unfold in_path. split.
    + intros [po [Hpo Hm]]. exists po. split; [now apply H2|assumption].
    + intros [po [Hpo Hm]].
      assert (Hd : In (pdir po) (map pdir (path_dirs path))) by (apply H3; now apply in_map).
      apply in_map_iff in Hd as [po' [He Hpo']]. exists po'. split; [assumption|].
      rewrite (Hsame po' po); [assumption|now apply H2|assumption|assumption].
Qed.

Lemma in_path_file_inj : forall path, path_ok path ->
  forall m n, in_path path m -> in_path path n -> file m = file n -> m = n.
Proof.
  intros path [Hsame [Hdisj Hnd]] m n [a [Ha Hm]] [b [Hb Hn]] Hf.
  assert (Hd : pdir a = pdir b) by (eapply Hdisj; eauto).
  rewrite <- (Hsame a b Ha Hb Hd) in Hn.
  eapply NoDup_map_In_inj; [apply (Hnd a Ha)| | |]; eauto.
Qed.

(* The files scanned for an implicit package: every file at most once, ONE
   file per module name, only files of its directories, every module name found
   there is represented; when no name occurs twice these are all the files *)
Theorem path_modules_once : forall path, path_ok path ->
  NoDup (map file (path_modules path)) /\
  NoDup (map mname (path_modules path)) /\
  (forall m, In m (path_modules path) -> in_path path m) /\
  (forall m, in_path path m -> exists m', In m' (path_modules path) /\ mname m' = mname m) /\
  (names_distinct path -> forall m, in_path path m -> In m (path_modules path)).
Proof.
  intros path Hok. destruct (path_files_once path Hok) as [Hnd Hin].
  unfold path_modules. rewrite unique_names_first_by.
  assert (Hrep : forall m, in_path path m ->
            exists m', In m' (first_by mname [] (path_files path)) /\ mname m' = mname m).
  { intros m Hm. apply Hin in Hm.
    assert (H : In (mname m) (map mname (first_by mname [] (path_files path))))
      by (apply first_by_complete; [assumption|intros []]).
    apply in_map_iff in H as [m' [He H]]. now exists m'. }
  split; [now apply first_by_NoDup_map|]. split; [apply first_by_NoDup|]. split.
  - intros m H. apply first_by_sound in H. apply Hin. tauto.
  - split; [exact Hrep|].
    intros Hdist m Hm. destruct (Hrep m Hm) as [m' [Hm' He]].
    assert (m' = m); [|now subst].
    apply Hdist; [|assumption|assumption]. apply first_by_sound in Hm'. apply Hin. tauto.
Qed.

(* an entry of __path__ that names a directory listed earlier changes nothing *)
Theorem repeated_portion_ignored : forall pre po mid po' post,
  pdir po' = pdir po ->
  path_modules (pre ++ po :: mid ++ po' :: post) = path_modules (pre ++ po :: mid ++ post).
Proof.
  intros pre po mid po' post He. unfold path_modules, path_files, path_dirs.
  rewrite !dedup_dirs_first_by. do 2 f_equal.
  pose proof (first_by_skip pdir (pre ++ po :: mid) [] po' post) as H.
  rewrite <- !app_assoc in H. apply H. right. exists po. split; [apply in_elt|now symmetry].
Qed.

Theorem namespace_repeated_directory_ignored : forall fms pkgname pre po mid po' post,
  pdir po' = pdir po ->
  init fms pkgname (ImportedNamespace (pre ++ po :: mid ++ po' :: post)) =
  init fms pkgname (ImportedNamespace (pre ++ po :: mid ++ post)).
Proof.
  intros. unfold init, import_outcome. now rewrite repeated_portion_ignored.
Qed.

(* "once each": for an implicit package too -- several directories, the same
   directory several times, files of the same name in several directories --
   every class with MODE_NAME and not DISABLED of a scanned file is called exactly
   once, nothing else is *)
Theorem namespace_instantiated_once : forall fms pkgname path r,
  init fms pkgname (ImportedNamespace path) = Built r ->
  path_ok path ->
  (forall m, in_path path m -> NoDup (map cname (classes m))) ->
  NoDup (ctor_calls r) /\
  (forall m c, In m (path_modules path) -> mname m <> "__init__" -> import_fails m = false -> In c (classes m) ->
     (In (file m, cname c) (ctor_calls r) <-> is_needed c = true)) /\
  (forall x, In x (ctor_calls r) ->
     exists m c, In m (path_modules path) /\ In c (classes m) /\ is_needed c = true /\ x = (file m, cname c)).
Proof.
  intros fms pkgname path r H Hok Hcls. unfold init, import_outcome in H.
  destruct (path_modules_once path Hok) as [Hnd [_ [Hin _]]].
  assert (Hl : layout_ok (PkgPresent (path_modules path))).
  { split; cbn [scanned_modules].
    - now apply NoDup_map_filter.
    - intros m Hm. apply filter_In in Hm as [Hm _]. exact (Hcls m (Hin m Hm)). }
  destruct (instantiated_exactly _ _ _ H Hl) as [I1 [I2 _]]. split; [exact I1|]. split.
  - intros m c Hm Hn Hf Hc. apply I2; [|exact Hc]. apply in_loaded_modules. auto.
  - intros x Hx. apply (built_calls_in _ _ _ H) in Hx as (m & c & Hm & Hc & Hn & E). exists m, c.
    apply in_loaded_modules in Hm. tauto.
Qed.

(* Files of the same name in several directories of __path__ (defect D15,
   DESIGN 13.4): of all the files that bear a module name exactly ONE is used, and
   every class with MODE_NAME and not DISABLED of that module is called through it
   and through no other file of that name. *)
Theorem namespace_one_file_per_name : forall fms pkgname path r,
  init fms pkgname (ImportedNamespace path) = Built r ->
  path_ok path -> name_determines_module path ->
  forall m, in_path path m -> mname m <> "__init__" -> import_fails m = false ->
  exists m', In m' (path_modules path) /\ mname m' = mname m /\
    forall c, In c (classes m) -> is_needed c = true ->
      In (file m', cname c) (ctor_calls r) /\
      (forall n, in_path path n -> mname n = mname m -> In (file n, cname c) (ctor_calls r) -> n = m').
Proof.
  intros fms pkgname path r H Hok Hname m Hm Hni Hif.
  destruct (path_modules_once path Hok) as [_ [Hndn [Hin [Hrep _]]]].
  unfold init, import_outcome in H. pose proof (built_calls_in _ _ _ H) as Hcalls.
  destruct (Hrep m Hm) as [m' [Hm' He]]. exists m'. split; [assumption|]. split; [assumption|].
  destruct (Hname m' m (Hin _ Hm') Hm He) as [Hc Hf].
  intros c Hcm Hneed. split.
  - apply Hcalls. exists m', c. split; [apply in_loaded_modules; split; [exact Hm'|split; [now rewrite He|now rewrite Hf]]|].
    rewrite Hc. auto.
  - (* a call through n is a call through a scanned file; files identify modules
       ([in_path_file_inj]) and scanned files have distinct names *)
    intros n Hn Hen Hcall. apply Hcalls in Hcall as (m2 & c2 & Hm2 & _ & _ & Hx).
    apply in_loaded_modules in Hm2 as [Hm2 _].
    assert (Hfile : file n = file m2) by congruence.
    assert (n = m2) by (apply (in_path_file_inj path Hok); [assumption|now apply Hin|exact Hfile]).
    subst m2. eapply NoDup_map_In_inj; [exact Hndn| | |]; auto. congruence.
Qed.

(* ... and a file whose name an earlier directory already has changes NOTHING
   (if d is the directory of a again, the whole entry is dropped on both sides) *)
Theorem namespace_shadowed_file_ignored : forall fms pkgname a d pre m' post,
  (exists m, In m (pfiles a) /\ mname m = mname m') ->
  init fms pkgname (ImportedNamespace [a; mkPortion d (pre ++ m' :: post)]) =
  init fms pkgname (ImportedNamespace [a; mkPortion d (pre ++ post)]).
Proof.
  intros fms pkgname a d pre m' post [m [Hm He]]. unfold init, import_outcome. do 2 f_equal.
  unfold path_modules, path_files, path_dirs. simpl.
  destruct (d =? pdir a); [reflexivity|]. simpl. rewrite !app_nil_r.
  rewrite !unique_names_first_by, !app_assoc. apply first_by_skip. right. exists m. split; [|assumption].
  apply in_or_app. now left.
Qed.

Lemma nondecreasing_tail : forall x l, nondecreasing (x :: l) -> nondecreasing l.
Proof. intros x l H. simpl in H. tauto. Qed.

Lemma nondecreasing_app_r : forall a b, nondecreasing (a ++ b) -> nondecreasing b.
Proof. induction a as [|x a IH]; intros b H; [assumption|]. apply IH. eapply nondecreasing_tail, H. Qed.

Lemma nondecreasing_app_l : forall a b, nondecreasing (a ++ b) -> nondecreasing a.
Proof.
  induction a as [|x a IH]; intros b H; [exact I|].
  simpl in *. destruct H as [H1 H2]. split; [|now apply IH with b].
  destruct a; [exact I|exact H1].
Qed.

Lemma nondecreasing_lower : forall l x, nondecreasing (x :: l) -> Forall (fun y => x <= y)%Z l.
Proof.
  induction l as [|y l IH]; intros x [H1 H2]; constructor; [exact H1|].
  eapply Forall_impl; [|apply IH, H2]. intros z Hz. simpl in Hz. lia.
Qed.

Lemma elapsed_times : forall t0 l, nondecreasing (t0 :: l) ->
  nondecreasing (map (fun now => now - t0)%Z l) /\ Forall (fun t => 0 <= t)%Z (map (fun now => now - t0)%Z l).
Proof.
  intros t0 l H. split.
  - apply nondecreasing_tail in H. induction l as [|x [|y l] IH]; simpl in *; try tauto.
    split; [lia|apply IH; tauto].
  - apply Forall_map. eapply Forall_impl; [|apply nondecreasing_lower, H]. intros z Hz. simpl in Hz. lia.
Qed.

Lemma enabled_prefix_is_prefix : forall wakes, exists rest, map wake_now wakes = enabled_prefix wakes ++ rest.
Proof.
  induction wakes as [|[[now [|]] dis] wakes [rest IH]]; simpl.
  - now exists [].
  - exists rest. unfold wake_now at 1. simpl. now rewrite IH.
  - now exists (now :: map wake_now wakes).
Qed.

Lemma live_prefix_is_prefix : forall wakes, exists rest, map wake_now wakes = live_prefix wakes ++ rest.
Proof.
  induction wakes as [|[[now [|]] [|]] wakes [rest IH]]; simpl.
  - now exists [].
  - now exists (map wake_now wakes).
  - exists rest. unfold wake_now at 1. simpl. now rewrite IH.
  - now exists (now :: map wake_now wakes).
  - now exists (now :: map wake_now wakes).
Qed.

Lemma live_prefix_undisturbed : forall wakes, undisturbed wakes -> live_prefix wakes = enabled_prefix wakes.
Proof.
  induction wakes as [|[[now en] dis] wakes IH]; intros H; [reflexivity|].
  inversion H as [|? ? H1 H2]; subst. unfold wake_disable in H1. simpl in H1. subst dis.
  simpl. destruct en; [|reflexivity]. now rewrite IH.
Qed.

Lemma disable_seen_undisturbed : forall wakes, undisturbed wakes -> disable_seen wakes = false.
Proof.
  induction wakes as [|[[now en] dis] wakes IH]; intros H; [reflexivity|].
  inversion H as [|? ? H1 H2]; subst. unfold wake_disable in H1. simpl in H1. subst dis.
  simpl. destruct en; [|reflexivity]. now apply IH.
Qed.

(* passes before a disable(): all enabled, none of them disturbed *)
Definition calm (w : wake) : Prop := wake_enabled w = true /\ wake_disable w = false.

Lemma live_prefix_disabled_at : forall pre now post, Forall calm pre ->
  live_prefix (pre ++ (now, true, true) :: post) = map wake_now pre ++ [now].
Proof.
  induction pre as [|[[n en] dis] pre IH]; intros now post H; [reflexivity|].
  inversion H as [|? ? [H1 H2] H3]; subst. unfold wake_enabled, wake_disable in *. simpl in H1, H2. subst.
  simpl. now rewrite IH.
Qed.

Lemma run_loop_idle : forall tm ex t0 wakes,
  run_loop (mkL None tm ex) t0 wakes = (mkL None tm ex, []).
Proof.
  intros tm ex t0 wakes. induction wakes as [|[[n en] dis] w IHw]; [reflexivity|].
  destruct en; [|reflexivity (* not enabled: the loop is left *)]. destruct dis; simpl.
  - now rewrite IHw.
  - now rewrite IHw.
Qed.

(* the loop of run() while a mode is active: one on_iteration per live pass,
   and the on_disable at the pass during which disable() was called *)
Lemma run_loop_active : forall m tm ex t0 wakes,
  run_loop (mkL (Some m) tm ex) t0 wakes =
  (mkL (if disable_seen wakes then None else Some m) tm ex,
   map (OnIteration m) (map (fun now => now - t0)%Z (live_prefix wakes)) ++
   (if disable_seen wakes then [OnDisable m] else [])).
Proof.
  intros m tm ex t0 wakes. induction wakes as [|[[now en] dis] wakes IH]; [reflexivity|].
  destruct en; [|reflexivity (* not enabled: the loop is left *)]. destruct dis; simpl.
  - (* disable() during this pass: nothing more is delivered *)
    unfold on_iteration, do_disable. simpl. rewrite run_loop_idle. reflexivity.
  - (* an undisturbed pass *)
    unfold on_iteration. simpl. rewrite IH. reflexivity.
Qed.

(* what one run() period delivers, exactly and from ANY state (run() selects
   afresh): on_enable, one on_iteration per live pass of the loop, one
   on_disable -- whether disable() was called during the loop or only by run()
   itself after it *)
Theorem run_period_exact : forall r st s t0 wakes,
  do_run r st s t0 wakes =
  (mkL None (timer st) (robot_exit st),
   match select r s with
   | None => []
   | Some m => OnEnable m ::
               map (OnIteration m)
                   (if robot_exit st then [] else map (fun now => now - t0)%Z (live_prefix wakes)) ++
               [OnDisable m]
   end).
Proof.
  intros r st s t0 wakes. unfold do_run, on_autonomous_enable. cbn [robot_exit timer].
  destruct (robot_exit st); [destruct (select r s); reflexivity (* the loop is not entered *)|].
  destruct (select r s) as [m|].
  - rewrite run_loop_active. destruct (disable_seen wakes); unfold do_disable; simpl; now rewrite app_nil_r.
  - now rewrite run_loop_idle.
Qed.

(* ... when nobody disturbs the loop: one on_iteration per enabled pass *)
Theorem run_period_undisturbed : forall r st s t0 wakes,
  undisturbed wakes ->
  do_run r st s t0 wakes =
  (mkL None (timer st) (robot_exit st),
   match select r s with
   | None => []
   | Some m => OnEnable m ::
               map (OnIteration m)
                   (if robot_exit st then [] else map (fun now => now - t0)%Z (enabled_prefix wakes)) ++
               [OnDisable m]
   end).
Proof. intros r st s t0 wakes Hu. now rewrite run_period_exact, live_prefix_undisturbed. Qed.

(* ... when disable() is called during a pass of the loop: that pass is the last
   one that delivers anything, on_disable comes once, and neither the passes that
   follow ([post], whatever the driver station says in them) nor run()'s own
   disable() after the loop deliver anything more *)
Theorem run_period_disable_mid : forall r st s m t0 pre now post,
  robot_exit st = false -> select r s = Some m -> Forall calm pre ->
  do_run r st s t0 (pre ++ (now, true, true) :: post) =
  (mkL None (timer st) false,
   OnEnable m ::
   map (OnIteration m) (map (fun n => n - t0)%Z (map wake_now pre ++ [now])) ++ [OnDisable m]).
Proof.
  intros r st s m t0 pre now post Hx Hs Hc.
  now rewrite run_period_exact, Hs, Hx, live_prefix_disabled_at.
Qed.

(* start() enables the mode that is selected NOW, whatever mode an earlier
   period left behind in self.active_mode *)
Theorem start_selects_afresh : forall r st s now,
  do_start r st s now =
  (mkL (select r s) (Some now) (robot_exit st),
   match select r s with Some m => [OnEnable m] | None => [] end).
Proof. reflexivity. Qed.

Lemma run_ops_cons : forall r st o ops,
  run_ops r st (o :: ops) =
  match step r st o with
  | None => ([], None)
  | Some (st', ev) => (ev ++ fst (run_ops r st' ops), snd (run_ops r st' ops))
  end.
Proof.
  intros r st o ops. simpl. destruct (step r st o) as [[st' ev]|]; [|reflexivity].
  now destruct (run_ops r st' ops).
Qed.

Lemma run_ops_periodics : forall r a t0 ex nows rest,
  run_ops r (mkL a (Some t0) ex) (map Periodic nows ++ rest) =
  let '(ev, fin) := run_ops r (mkL a (Some t0) ex) rest in
  (match a with Some m => map (fun now => OnIteration m (now - t0)%Z) nows | None => [] end ++ ev, fin).
Proof.
  intros r a t0 ex nows rest. induction nows as [|now nows IH]; simpl.
  - destruct (run_ops r _ rest). destruct a; reflexivity.
  - simpl in IH. rewrite IH. destruct (run_ops r _ rest). destruct a; reflexivity.
Qed.

(* what start . periodic^n delivers (no disable()) *)
Definition open_period (r : selector) (s : sel) (now : Z) (nows : list Z) : list event :=
  match select r s with
  | None => []
  | Some m => OnEnable m :: map (fun n => OnIteration m (n - now)%Z) nows
  end.

(* ... from ANY state, and where it leaves the selector *)
Lemma run_ops_start : forall r st s now nows rest,
  run_ops r st (Start s now :: map Periodic nows ++ rest) =
  let '(ev, fin) := run_ops r (mkL (select r s) (Some now) (robot_exit st)) rest in
  (open_period r s now nows ++ ev, fin).
Proof.
  intros r st s now nows rest. cbn [run_ops step]. rewrite start_selects_afresh, run_ops_periodics.
  destruct (run_ops r _ rest). unfold open_period. destruct (select r s); reflexivity.
Qed.

(* what one start / periodic* / disable period delivers, exactly *)
Theorem timed_period_exact : forall r st s now nows,
  run_ops r st (Start s now :: map Periodic nows ++ [Disable]) =
  (match select r s with
   | None => []
   | Some m => OnEnable m :: map (fun n => OnIteration m (n - now)%Z) nows ++ [OnDisable m]
   end,
   Some (mkL None (Some now) (robot_exit st))).
Proof.
  intros r st s now nows. rewrite run_ops_start. unfold open_period. simpl.
  destruct (select r s); reflexivity.
Qed.

(* two TimedRobot periods, the first one NOT followed by disable(): the second
   one goes to the mode selected when it begins (to nobody if that is "None"),
   from ANY state -- the mode of the first period hears nothing more *)
Theorem period_after_open_period : forall r st s1 now1 nows1 s2 now2 nows2,
  run_ops r st (Start s1 now1 :: map Periodic nows1 ++ Start s2 now2 :: map Periodic nows2) =
  (open_period r s1 now1 nows1 ++ open_period r s2 now2 nows2,
   Some (mkL (select r s2) (Some now2) (robot_exit st))).
Proof.
  intros r st s1 now1 nows1 s2 now2 nows2.
  rewrite run_ops_start, <- (app_nil_r (map Periodic nows2)), run_ops_start. simpl.
  now rewrite app_nil_r.
Qed.

(* The rest of a period of mode m after its on_enable (lo = 0) or an
   on_iteration(lo); c: the period is ended by a disable(). *)
Definition rest_of_period (r : selector) (m : inst) (lo : Z) (c : bool)
    (ps : list (sel * bool)) (tr : list event) : Prop :=
  exists ts tr', nondecreasing (lo :: ts) /\ conforms_marked r ps tr' /\
    tr = map (OnIteration m) ts ++ (if c then OnDisable m :: tr' else tr').

Lemma rest_of_period_end : forall r m lo c ps tr,
  conforms_marked r ps tr -> rest_of_period r m lo c ps (if c then OnDisable m :: tr else tr).
Proof. intros r m lo c ps tr Hc. exists [], tr. simpl. auto. Qed.

Lemma rest_of_period_iter : forall r m lo t c ps tr,
  (lo <= t)%Z -> rest_of_period r m t c ps tr -> rest_of_period r m lo c ps (OnIteration m t :: tr).
Proof.
  intros r m lo t c ps tr Hle (ts & tr' & Hn & Hc & ->). exists (t :: ts), tr'. simpl in *. auto.
Qed.

Lemma rest_of_period_begin : forall r m c s ps tr,
  rest_of_period r m 0 c ps tr -> select r s = Some m ->
  conforms_marked r ((s, c) :: ps) (OnEnable m :: tr).
Proof.
  intros r m c s ps tr (ts & tr' & Hn & Hc & ->) Hs.
  pose proof (nondecreasing_lower _ _ Hn) as Hpos. apply nondecreasing_tail in Hn.
  destruct c; [now apply cm_closed|now apply cm_left_open].
Qed.

(* the events of a run() period ([run_period_exact]; ex: robot_exit, under which
   the loop is not entered) in front of the trace of the later periods *)
Lemma run_period_conforms : forall r s t0 wakes (ex : bool) ps tr,
  nondecreasing (t0 :: map wake_now wakes) -> conforms_marked r ps tr ->
  conforms_marked r ((s, true) :: ps)
    (match select r s with
     | None => []
     | Some m => OnEnable m ::
                 map (OnIteration m) (if ex then [] else map (fun now => now - t0)%Z (live_prefix wakes)) ++
                 [OnDisable m]
     end ++ tr).
Proof.
  intros r s t0 wakes ex ps tr Hn Hc. destruct (select r s) as [m|] eqn:Es; [|now apply cm_none].
  cbn [app]. rewrite <- app_assoc. destruct ex; [now apply cm_closed|].
  destruct (live_prefix_is_prefix wakes) as [post Hp]. rewrite Hp in Hn.
  apply (nondecreasing_app_l (t0 :: live_prefix wakes)), elapsed_times in Hn.
  now apply cm_closed.
Qed.

Definition has_timer (tm : option Z) : bool := match tm with Some _ => true | None => false end.

(* once start() has been called no periodic() finds self.timer missing *)
Lemma timer_ready_started : forall ops, timer_ready true ops = true.
Proof. induction ops as [|[] ops IH]; simpl; auto. Qed.

(* start() and run() select afresh: whatever mode was active hears nothing more *)
Definition selects_afresh (o : op) : Prop :=
  match o with Start _ _ | RunPeriod _ _ _ => True | _ => False end.

Lemma run_ops_selects_afresh : forall r a tm ex o ops, selects_afresh o ->
  run_ops r (mkL a tm ex) (o :: ops) = run_ops r (mkL None tm ex) (o :: ops).
Proof.
  intros r a tm ex [s now|now| |s t0 wakes|] ops H; try contradiction H; rewrite !run_ops_cons; cbn [step].
  - reflexivity.
  - now rewrite !run_period_exact.
Qed.

(* No call fails once self.timer is there: only periodic() can fail, and only
   before the first start(). *)
Lemma run_ops_total : forall r ops st,
  timer_ready (has_timer (timer st)) ops = true -> snd (run_ops r st ops) <> None.
Proof.
  intros r. induction ops as [|o ops IH]; intros st Hr; [discriminate|].
  rewrite run_ops_cons.
  destruct o as [s now|now| |s t0 wakes|]; cbn [step timer_ready] in *.
  - (* start() creates the timer *)
    rewrite start_selects_afresh. apply IH, timer_ready_started.
  - (* periodic(): the timer is there, the state does not change *)
    unfold do_periodic. destruct (timer st) as [t|] eqn:Et; [|discriminate Hr].
    apply IH. now rewrite Et.
  - (* disable() keeps the timer *)
    apply IH, Hr.
  - (* run() keeps the timer *)
    rewrite run_period_exact. apply IH, Hr.
  - (* endCompetition() keeps the timer *)
    apply IH, Hr.
Qed.

(* From an idle state the call sequence delivers its periods; from a state in
   which mode m is active -- the clock read [lastnow] last -- first the rest of
   m's period.  Only start() leaves a mode active, and it sets the timer: such a
   state is mkL (Some m) (Some t0) ex. *)
Lemma lifecycle_marked_gen : forall r ops,
  (forall tm ex, timer_ready (has_timer tm) ops = true -> nondecreasing (readings ops) ->
     conforms_marked r (periods ops) (fst (run_ops r (mkL None tm ex) ops))) /\
  (forall m t0 ex lastnow, nondecreasing (lastnow :: readings ops) ->
     rest_of_period r m (lastnow - t0) (closed_before_next ops) (periods ops)
       (fst (run_ops r (mkL (Some m) (Some t0) ex) ops))).
Proof.
  intros r. induction ops as [|o ops [IHi IHa]].
  { split.
    - intros tm ex _ _. apply cm_nil.
    - intros m t0 ex lastnow _. apply (rest_of_period_end _ _ _ false), cm_nil. }
  assert (Hi : forall tm ex, timer_ready (has_timer tm) (o :: ops) = true ->
                 nondecreasing (readings (o :: ops)) ->
                 conforms_marked r (periods (o :: ops)) (fst (run_ops r (mkL None tm ex) (o :: ops)))).
  { intros tm ex. rewrite run_ops_cons.
    destruct o as [s now|now| |s t1 wakes|]; cbn [timer_ready readings periods step]; intros Hr Hn.
    - (* start(): the period of the selected mode, if any, begins *)
      rewrite start_selects_afresh. cbn [robot_exit fst]. destruct (select r s) as [m|] eqn:Es.
      + specialize (IHa m now ex now Hn). rewrite Z.sub_diag in IHa. now apply rest_of_period_begin.
      + apply cm_none; [exact Es|]. exact (IHi (Some now) ex Hr (nondecreasing_tail _ _ Hn)).
    - (* periodic() while idle: nothing *)
      destruct tm as [t0|]; [|discriminate Hr]. exact (IHi _ _ Hr (nondecreasing_tail _ _ Hn)).
    - (* disable() while idle: nothing *)
      exact (IHi _ _ Hr Hn).
    - (* run(): a whole period *)
      rewrite run_period_exact. cbn [timer robot_exit fst].
      apply run_period_conforms; [exact (nondecreasing_app_l (t1 :: map wake_now wakes) _ Hn)|].
      exact (IHi tm ex Hr (nondecreasing_app_r _ _ (nondecreasing_tail _ _ Hn))).
    - (* endCompetition(): nothing *)
      exact (IHi _ _ Hr Hn). }
  split; [exact Hi|]. intros m t0 ex lastnow Hn.
  (* start() and run() select afresh: the rest of m's period is empty, and the
     sequence goes on as from an idle state *)
  assert (Hfresh : selects_afresh o -> closed_before_next (o :: ops) = false ->
            rest_of_period r m (lastnow - t0) (closed_before_next (o :: ops)) (periods (o :: ops))
              (fst (run_ops r (mkL (Some m) (Some t0) ex) (o :: ops)))).
  { intros Ho ->. rewrite (run_ops_selects_afresh _ _ _ _ _ _ Ho).
    apply (rest_of_period_end _ _ _ false).
    exact (Hi (Some t0) ex (timer_ready_started _) (nondecreasing_tail _ _ Hn)). }
  destruct o as [s now|now| |s t1 wakes|].
  - (* start() *)
    now apply Hfresh.
  - (* periodic(): one more on_iteration for m *)
    rewrite run_ops_cons.
    cbn [readings periods closed_before_next step do_periodic timer fst on_iteration active app] in Hn |- *.
    destruct Hn as [Hle Hn]. apply rest_of_period_iter; [lia|]. exact (IHa m t0 ex now Hn).
  - (* disable(): m's period is closed, the sequence goes on as from an idle state *)
    rewrite run_ops_cons.
    cbn [readings periods closed_before_next step do_disable active timer robot_exit fst app] in Hn |- *.
    apply (rest_of_period_end _ _ _ true).
    exact (IHi (Some t0) ex (timer_ready_started _) (nondecreasing_tail _ _ Hn)).
  - (* run() *)
    now apply Hfresh.
  - (* endCompetition(): m stays active *)
    rewrite run_ops_cons. cbn [readings periods closed_before_next step fst app] in Hn |- *.
    exact (IHa m t0 true lastnow Hn).
Qed.

(* every call sequence in which periodic() does not come before the first
   start(): periods may follow one another without disable() in between, start()
   and run() may be mixed at will *)
Theorem lifecycle_marked : forall r ops,
  timer_ready false ops = true -> clock_monotone ops ->
  conforms_marked r (periods ops) (trace r ops) /\ snd (run_ops r init_lstate ops) <> None.
Proof.
  intros r ops Hr Hc. split.
  - exact (proj1 (lifecycle_marked_gen r ops) None false Hr Hc).
  - now apply run_ops_total.
Qed.

(* A well-formed call sequence is one of these, and all its periods but the
   last are ended by a disable(). *)
Fixpoint closed_but_last (ps : list (sel * bool)) : Prop :=
  match ps with
  | [] => True
  | (_, c) :: ps' => (c = true \/ ps' = []) /\ closed_but_last ps'
  end.

Lemma wf_timer_ready : forall ops, well_formed ops = true -> timer_ready false ops = true.
Proof.
  unfold well_formed. induction ops as [|[s now|now| |s t0 wakes|] ops IH]; simpl; intros H.
  - reflexivity.
  - (* start(): from there on [timer_ready_started] *)
    apply timer_ready_started.
  - (* periodic() before the first start() is not well-formed *)
    discriminate H.
  - exact (IH H).
  - exact (IH H).
  - exact (IH H).
Qed.

Lemma wf_closed_but_last : forall ops ph, wf ph ops = true ->
  closed_but_last (periods ops) /\
  (ph = Open -> closed_before_next ops = true \/ periods ops = []).
Proof.
  induction ops as [|[s now|now| |s t0 wakes|] ops IH]; intros ph H; simpl in *.
  - split; [exact I|]. intros _. now right.
  - (* start(): not while a period is open.  The period it opens is closed before
       the next one begins, or is the last: the second part of IH, at Open *)
    assert (Hph : ph <> Open) by (intros ->; discriminate H).
    assert (Hw : wf Open ops = true) by (destruct ph; first [exact H|discriminate H]).
    destruct (IH Open Hw) as [H1 H2].
    split; [split; [exact (H2 eq_refl)|exact H1]|]. intros E. contradiction.
  - (* periodic(): the phase stays *)
    destruct ph; [discriminate H|exact (IH _ H)..].
  - (* disable(): closes the open period *)
    split; [apply (IH _ H)|]. intros _. now left.
  - (* run(): not while a period is open; always closed *)
    assert (Hph : ph <> Open) by (intros ->; discriminate H).
    assert (Hw : wf ph ops = true) by (destruct ph; first [exact H|discriminate H]).
    destruct (IH ph Hw) as [H1 _].
    split; [split; [now left|exact H1]|]. intros E. contradiction.
  - (* endCompetition(): the phase stays *)
    exact (IH _ H).
Qed.

Lemma conforms_marked_closed : forall r ps tr,
  conforms_marked r ps tr -> closed_but_last ps -> conforms r (map fst ps) tr.
Proof.
  induction 1 as [|s c ps tr Hs Hc IH|s ps m ts tr Hs Hn Hp Hc IH|s ps m ts tr Hs Hn Hp Hc IH];
    simpl; intros Hl.
  - constructor.
  - apply conf_none; tauto.
  - apply conf_closed; tauto.
  - destruct Hl as [[Hl|Hl] _]; [discriminate|]. subst ps. inversion Hc; subst.
    rewrite app_nil_r. now apply conf_open.
Qed.

Lemma periods_selections : forall ops, map fst (periods ops) = selections ops.
Proof.
  induction ops as [|[s now|now| |s t0 wakes|] ops IH]; simpl; congruence.
Qed.

Theorem lifecycle : forall r ops,
  well_formed ops = true -> clock_monotone ops ->
  conforms r (selections ops) (trace r ops) /\ snd (run_ops r init_lstate ops) <> None.
Proof.
  intros r ops Hwf Hclk.
  destruct (lifecycle_marked r ops (wf_timer_ready ops Hwf) Hclk) as [H1 H2]. split; [|exact H2].
  rewrite <- periods_selections. now apply conforms_marked_closed, (wf_closed_but_last ops Fresh).
Qed.

Lemma conforms_marked_modes : forall r ps tr, conforms_marked r ps tr ->
  forall e, In e tr -> exists s, In s (map fst ps) /\ select r s = Some (mode_of e).
Proof.
  induction 1 as [|s c ps tr Hs Hc IH|s ps m ts tr Hs Hn Hp Hc IH|s ps m ts tr Hs Hn Hp Hc IH]; intros e He;
    [contradiction|..].
  (* e belongs to the mode of the first period or to a later period *)
  all: enough (Hm : select r s = Some (mode_of e) \/ In e tr)
    by (destruct Hm as [Hm|Hm]; [exists s; split; [now left|exact Hm]|];
        destruct (IH e Hm) as (s' & H1 & H2); exists s'; split; [now right|exact H2]).
  - now right.
  - destruct He as [<-|He]; [now left|].
    apply in_app_iff in He as [He|[<-|He]]; [apply in_map_iff in He as (t & <- & _)|..]; auto.
  - destruct He as [<-|He]; [now left|].
    apply in_app_iff in He as [He|He]; [apply in_map_iff in He as (t & <- & _)|]; auto.
Qed.

(* nothing but the selected modes ever gets a callback -- also when periods are left open *)
Theorem only_selected_modes : forall r ops,
  timer_ready false ops = true -> clock_monotone ops ->
  forall e, In e (trace r ops) ->
    exists s, In s (selections ops) /\ select r s = Some (mode_of e).
Proof.
  intros r ops Hw Hc e He. destruct (lifecycle_marked r ops Hw Hc) as [H _].
  rewrite <- periods_selections. eapply conforms_marked_modes; eauto.
Qed.

Definition is_enable (e : event) : Prop := match e with OnEnable _ => True | _ => False end.

(* whatever comes directly after an on_disable is the next period's on_enable *)
Fixpoint quiet_after_disable (tr : list event) : Prop :=
  match tr with
  | [] => True
  | e :: rest =>
    match e, rest with
    | OnDisable _, e' :: _ => is_enable e'
    | _, _ => True
    end /\ quiet_after_disable rest
  end.

Lemma conforms_marked_head : forall r ps e tr, conforms_marked r ps (e :: tr) -> is_enable e.
Proof.
  intros r ps e tr H. remember (e :: tr) as l eqn:El.
  induction H as [|s c ps tr' _ _ IH|s ps m ts tr' _ _ _ _ _|s ps m ts tr' _ _ _ _ _].
  - discriminate El.
  - (* a silent period: the trace is that of the later periods *)
    exact (IH El).
  - (* a period with a mode begins with its on_enable *)
    injection El as <- _. exact I.
  - injection El as <- _. exact I.
Qed.

Lemma quiet_iters : forall m ts rest,
  quiet_after_disable rest -> quiet_after_disable (map (OnIteration m) ts ++ rest).
Proof.
  induction ts as [|t ts IH]; intros rest Hq; simpl; [assumption|].
  split; [destruct (map (OnIteration m) ts ++ rest); exact I|]. now apply IH.
Qed.

Lemma conforms_marked_quiet : forall r ps tr, conforms_marked r ps tr -> quiet_after_disable tr.
Proof.
  induction 1 as [|s c ps tr Hs Hc IH|s ps m ts tr Hs Hn Hp Hc IH|s ps m ts tr Hs Hn Hp Hc IH].
  - exact I.
  - exact IH.
  - split; [destruct (map (OnIteration m) ts ++ OnDisable m :: tr); exact I|].
    apply quiet_iters. split; [|exact IH].
    destruct tr as [|e tr]; [exact I|]. eapply conforms_marked_head; eauto.
  - split; [destruct (map (OnIteration m) ts ++ tr); exact I|]. now apply quiet_iters.
Qed.

Theorem nothing_after_disable : forall r ops,
  timer_ready false ops = true -> clock_monotone ops -> quiet_after_disable (trace r ops).
Proof.
  intros r ops Hw Hc. destruct (lifecycle_marked r ops Hw Hc) as [H _]. eapply conforms_marked_quiet; eauto.
Qed.

(* Where the code differs from the wording of the property *)

(* (a) a MODE_NAME that equals an artificial duplicate key: with the FMS the
   healthy mode A0 is overwritten by the renamed duplicate B and is not offered *)
Definition clash_pkg : package :=
  PkgPresent [mkMod "m" "/p/m.py" false
    [mkCls "A" (Some "x") false false false;
     mkCls "A0" (Some "B_/p/m.py") false false false;
     mkCls "B" (Some "x") false false false]].

Theorem fms_key_clash_refuted :
  exists r, discover true clash_pkg = Built r /\
    In (mkInst "/p/m.py" (mkCls "A0" (Some "B_/p/m.py") false false false)) (needed clash_pkg) /\
    forall k, dict_get k (modes r) <> Some (mkInst "/p/m.py" (mkCls "A0" (Some "B_/p/m.py") false false false)).
Proof.
  eexists. split; [vm_compute; reflexivity|]. split; [vm_compute; tauto|].
  intros k. cbn [modes]. unfold dict_get.
  destruct ("x" =? k); [discriminate|]. destruct ("B_/p/m.py" =? k); discriminate.
Qed.

(* (b) a mode whose MODE_NAME is "None" is hidden by the chooser's own entry,
   even when it is the DEFAULT *)
Definition none_pkg : package :=
  PkgPresent [mkMod "m" "/p/m.py" false [mkCls "A" (Some "None") false true false]].

Theorem mode_called_None_refuted :
  exists r, discover false none_pkg = Built r /\
    preselection r = "None" /\ chooser_selected (chooser_of r) None = None /\
    chooser_selected (chooser_of r) (Some "None") = None.
Proof. eexists. split; [vm_compute; reflexivity|]. vm_compute. auto. Qed.

Definition ev_kind (e : event) : string * string :=
  match e with
  | OnEnable m => ("enable", cname (icls m))
  | OnIteration m _ => ("iteration", cname (icls m))
  | OnDisable m => ("disable", cname (icls m))
  end.

(* (c) start() twice without disable(): the first mode never gets on_disable *)
Definition two_pkg : package :=
  PkgPresent [mkMod "m" "/p/m.py" false
    [mkCls "A" (Some "a") false true false; mkCls "B" (Some "b") false false false]].

Theorem ill_formed_refuted :
  exists r, discover false two_pkg = Built r /\
    well_formed [Start (None, None) 0; Start (Some "b", None) 5; Disable] = false /\
    map ev_kind (trace r [Start (None, None) 0; Start (Some "b", None) 5; Disable]) =
      [("enable", "A"); ("enable", "B"); ("disable", "B")].
Proof. eexists. split; [vm_compute; reflexivity|]. split; reflexivity. Qed.

(* For the examples of Properties/C14.v: [layout_ok], [no_key_clash] and [path_ok]
   of a closed layout from boolean tests that evaluate. *)
Lemma has_dup_false : forall l, has_dup l = false -> NoDup l.
Proof.
  induction l as [|x l IH]; simpl; intros H; [constructor|].
  destruct (existsb _ _) eqn:E; [discriminate|]. constructor; [now apply existsb_eqb_not_In|auto].
Qed.

Lemma no_key_clash_intro : forall p,
  has_dup (map renamed (needed p)) = false ->
  forallb (fun n => negb (existsb (String.eqb n) (map renamed (needed p)))) (map name_of (needed p)) = true ->
  no_key_clash p.
Proof.
  intros p H1 H2. split; [now apply has_dup_false|]. intros i j Hi Hj E.
  rewrite forallb_forall in H2. specialize (H2 _ (in_map name_of _ _ Hi)).
  apply negb_true_iff, existsb_eqb_not_In in H2. apply H2. rewrite E. now apply in_map.
Qed.

(* a __path__ all of whose entries are among distinct directories with distinct files *)
Lemma path_ok_intro : forall base path,
  incl path base -> NoDup (map pdir base) -> NoDup (map file (flat_map pfiles base)) -> path_ok path.
Proof.
  intros base path Hin Hd Hf.
  assert (H : (forall a, In a base -> NoDup (map file (pfiles a))) /\
              (forall a b m n, In a base -> In b base -> In m (pfiles a) -> In n (pfiles b) ->
                 file m = file n -> a = b)).
  { clear path Hin Hd. induction base as [|c base IH]; [split; [intros a []|intros a b m n []]|].
    simpl in Hf. rewrite map_app in Hf. apply NoDup_app_iff in Hf as (Hc & Hf & Hx).
    destruct (IH Hf) as [IH1 IH2].
    assert (Hx' : forall m n b, In m (pfiles c) -> In b base -> In n (pfiles b) -> file m <> file n).
    { intros m n b Hm Hb Hn E. apply (Hx (file m)); [now apply in_map|].
      rewrite E. apply in_map, in_flat_map. now exists b. }
    split.
    - intros a [<-|Ha]; [exact Hc|now apply IH1].
    - intros a b m n [<-|Ha] [<-|Hb] Hm Hn E; auto.
      + now destruct (Hx' m n b Hm Hb Hn).
      + symmetry in E. now destruct (Hx' n m a Hn Ha Hm).
      + eapply IH2; eauto. }
  destruct H as [H1 H2]. split; [|split].
  - intros a b Ha Hb E. now rewrite (NoDup_map_In_inj pdir base a b Hd (Hin a Ha) (Hin b Hb) E).
  - intros a b m n Ha Hb Hm Hn E. now rewrite (H2 a b m n (Hin a Ha) (Hin b Hb) Hm Hn E).
  - intros a Ha. apply H1, Hin, Ha.
Qed.
