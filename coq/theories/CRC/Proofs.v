(* crc7: the table-driven loop is the bit-serial CRC-7 (reflected polynomial 0x91) and detects the error
   patterns of C20.  The round function is shifts and xors, so it is linear over xor on all of N
   ([round1_lin]); byte and 7-bit bounds are needed only where the table is indexed.  Linearity reduces
   detection to "the CRC of the error pattern is not 0", and a pattern framed by zeros to its core
   ([framed_nonzero]).  Evaluation is used for what is finite: the 256 bytes ([byte_alone]), the 128
   register values ([round1_nonzero]), the cores of bursts and double flips. *)
From Coq Require Import NArith List Bool Lia Arith.
From RV Require Import CRC.Model.
Import ListNotations.
Open Scope N_scope.

Definition upto (n : nat) : list N := map N.of_nat (seq 0 n).

Lemma sweep1 (P : N -> bool) n :
  forallb P (upto n) = true -> forall x, x < N.of_nat n -> P x = true.
Proof.
  intros H x Hx. rewrite forallb_forall in H. apply H.
  unfold upto. rewrite <- (N2Nat.id x). apply in_map, in_seq. lia.
Qed.

(* Folds below are stepped with this equation and not with [cbn]: a conversion step between goals that mention
   [rounds8] makes the kernel unfold all eight rounds before it gives up comparing the accumulators. *)
Lemma fold_left_cons {A B} (f : A -> B -> A) x l a :
  fold_left f (x :: l) a = fold_left f l (f a x).
Proof. reflexivity. Qed.

Lemma lt_pow2_shiftr a n : a < 2 ^ n <-> N.shiftr a n = 0.
Proof.
  rewrite N.shiftr_div_pow2. symmetry. apply N.div_small_iff, N.pow_nonzero. discriminate.
Qed.

Lemma lxor_lt256 a b : a < 256 -> b < 256 -> N.lxor a b < 256.
Proof.
  change 256 with (2 ^ 8). rewrite !lt_pow2_shiftr, N.shiftr_lxor.
  intros -> ->. reflexivity.
Qed.

Lemma round1_0 : round1 0 = 0.
Proof. reflexivity. Qed.

Lemma round1_lt128 c : c < 256 -> round1 c < 128.
Proof.
  intros H. unfold round1. apply (lt_pow2_shiftr _ 7). rewrite N.shiftr_shiftr.
  apply (lt_pow2_shiftr _ 8).
  destruct (N.testbit c 0); [apply lxor_lt256; [exact H | reflexivity] | exact H].
Qed.

Lemma lt128_lt256 a : a < 128 -> a < 256.
Proof. lia. Qed.

Lemma rounds8_lt128 c : c < 256 -> rounds8 c < 128.
Proof.
  intros H. unfold rounds8.
  do 7 apply round1_lt128, lt128_lt256. apply round1_lt128, H.
Qed.

Lemma lxor_swap4 a b c d :
  N.lxor (N.lxor a b) (N.lxor c d) = N.lxor (N.lxor a c) (N.lxor b d).
Proof.
  rewrite !N.lxor_assoc. f_equal. rewrite <- !N.lxor_assoc. f_equal. apply N.lxor_comm.
Qed.

(* The conditional xor with the polynomial is an xor with 145 or 0, so the
   whole round is shifts and xors. *)
Lemma round1_xor c :
  round1 c = N.shiftr (N.lxor c (if N.testbit c 0 then 145 else 0)) 1.
Proof. unfold round1. destruct (N.testbit c 0); [|rewrite N.lxor_0_r]; reflexivity. Qed.

Lemma round1_lin a b : round1 (N.lxor a b) = N.lxor (round1 a) (round1 b).
Proof.
  rewrite !round1_xor, <- N.shiftr_lxor, <- lxor_swap4, N.lxor_spec. do 2 f_equal.
  destruct (N.testbit a 0), (N.testbit b 0); reflexivity.
Qed.

Lemma rounds8_lin a b : rounds8 (N.lxor a b) = N.lxor (rounds8 a) (rounds8 b).
Proof. unfold rounds8. rewrite !round1_lin. reflexivity. Qed.

(* round1 has trivial kernel on 7-bit values *)
Lemma round1_nonzero c : c < 128 -> c <> 0 -> round1 c <> 0.
Proof.
  intros Hc Hn E. apply Hn.
  assert (X : implb (round1 c =? 0) (c =? 0) = true).
  { clear Hn E. revert c Hc.
    apply (sweep1 (fun c => implb (round1 c =? 0) (c =? 0)) 128).
    vm_compute. reflexivity. }
  rewrite E in X. simpl in X. apply N.eqb_eq. exact X.
Qed.

Lemma table_ok_eq T : table_ok T = true -> T = bitwise_table.
Proof. unfold table_ok. destruct (list_eq_dec N.eq_dec T bitwise_table); congruence. Qed.

Lemma bitwise_table_nth i : i < 256 ->
  nth_error bitwise_table (N.to_nat i) = Some (rounds8 i).
Proof.
  intros H. unfold bitwise_table.
  rewrite nth_error_map, (nth_error_nth' _ 0%nat) by (rewrite seq_length; lia).
  rewrite seq_nth by lia. cbn [option_map Nat.add]. rewrite N2Nat.id. reflexivity.
Qed.

(* the step of crc_bitwise, verbatim, so that its folds need no conversion *)
Local Notation bytestep := (fun c d => rounds8 (N.lxor c d)).

(* Table lookup (total or partial) is the bitwise step; the register stays
   below 128, which keeps the index below 256. *)
Lemma fold_table_bitwise data : Forall is_byte data -> forall c, c < 128 ->
  fold_left (fun c d => nth (N.to_nat (N.lxor d c)) bitwise_table 0) data c
  = fold_left bytestep data c
  /\ fold_left (fun oc d => match oc with
                           | Some c => nth_error bitwise_table (N.to_nat (N.lxor d c))
                           | None => None end) data (Some c)
  = Some (fold_left bytestep data c)
  /\ fold_left bytestep data c < 128.
Proof.
  induction 1 as [|d data Hd _ IH]; intros c Hc; [auto|].
  rewrite !fold_left_cons. cbv beta.
  rewrite (N.lxor_comm d c).
  assert (Hx : N.lxor c d < 256) by (apply lxor_lt256; [lia | exact Hd]).
  rewrite (nth_error_nth _ _ 0 (bitwise_table_nth _ Hx)), bitwise_table_nth by exact Hx.
  apply IH, rounds8_lt128, Hx.
Qed.

Theorem table_equals_bitwise T data :
  table_ok T = true -> Forall is_byte data -> crc_table T data = crc_bitwise data.
Proof.
  intros HT Hd. rewrite (table_ok_eq T HT). exact (proj1 (fold_table_bitwise data Hd 0 eq_refl)).
Qed.

Theorem crc_seven_bits data : Forall is_byte data -> crc_bitwise data < 128.
Proof. intros Hd. exact (proj2 (proj2 (fold_table_bitwise data Hd 0 eq_refl))). Qed.

(* the partial (Python: IndexError) version never fails on bytes *)
Theorem table_opt_total T data :
  table_ok T = true -> Forall is_byte data ->
  crc_table_opt T data = Some (crc_bitwise data).
Proof.
  intros HT Hd. rewrite (table_ok_eq T HT).
  exact (proj1 (proj2 (fold_table_bitwise data Hd 0 eq_refl))).
Qed.

Lemma bytestep_lin c1 c2 x y :
  rounds8 (N.lxor (N.lxor c1 c2) (N.lxor x y))
  = N.lxor (rounds8 (N.lxor c1 x)) (rounds8 (N.lxor c2 y)).
Proof. rewrite lxor_swap4. apply rounds8_lin. Qed.

Lemma fold_bytes_lin a : forall b, length a = length b -> forall c1 c2,
  fold_left bytestep (xor_bytes a b) (N.lxor c1 c2)
  = N.lxor (fold_left bytestep a c1) (fold_left bytestep b c2).
Proof.
  induction a as [|x a IH]; intros b Hl c1 c2.
  - destruct b as [|y b]; [reflexivity | discriminate Hl].
  - destruct b as [|y b]; [discriminate Hl | injection Hl as Hl].
    cbn [xor_bytes]. rewrite !fold_left_cons. cbv beta. rewrite bytestep_lin. apply IH. exact Hl.
Qed.

Theorem crc_linear a b : length a = length b ->
  crc_bitwise (xor_bytes a b) = N.lxor (crc_bitwise a) (crc_bitwise b).
Proof. intros Hl. exact (fold_bytes_lin a b Hl 0 0). Qed.

Lemma xor_bytes_is_byte a : Forall is_byte a -> forall b, Forall is_byte b ->
  Forall is_byte (xor_bytes a b).
Proof.
  induction 1 as [|x a Hx Ha IH]; intros b Hb; [constructor|].
  destruct b as [|y b]; cbn [xor_bytes]; [constructor; assumption|].
  inversion Hb; subst. constructor; [apply lxor_lt256; assumption | apply IH; assumption].
Qed.

Theorem table_seven_bits T data :
  table_ok T = true -> Forall is_byte data -> crc_table T data < 128.
Proof. intros HT Hd. rewrite table_equals_bitwise by assumption. apply crc_seven_bits, Hd. Qed.

Theorem table_linear T a b :
  table_ok T = true -> Forall is_byte a -> Forall is_byte b -> length a = length b ->
  crc_table T (xor_bytes a b) = N.lxor (crc_table T a) (crc_table T b).
Proof.
  intros HT Ha Hb Hl.
  rewrite (table_equals_bitwise T (xor_bytes a b) HT (xor_bytes_is_byte a Ha b Hb)),
          (table_equals_bitwise T a HT Ha), (table_equals_bitwise T b HT Hb).
  apply crc_linear, Hl.
Qed.

Definition bitstep (c : N) (b : bool) : N := round1 (N.lxor c (b2n b)).

Lemma b2n_xorb x y : b2n (xorb x y) = N.lxor (b2n x) (b2n y).
Proof. destruct x, y; reflexivity. Qed.

Lemma bitstep_lin c1 c2 x y :
  bitstep (N.lxor c1 c2) (xorb x y) = N.lxor (bitstep c1 x) (bitstep c2 y).
Proof. unfold bitstep. rewrite b2n_xorb, lxor_swap4. apply round1_lin. Qed.

Lemma fold_bits_lin a : forall b, length a = length b -> forall c1 c2,
  fold_left bitstep (xorb_list a b) (N.lxor c1 c2)
  = N.lxor (fold_left bitstep a c1) (fold_left bitstep b c2).
Proof.
  induction a as [|x a IH]; intros b Hl c1 c2.
  - destruct b as [|y b]; [reflexivity | discriminate Hl].
  - destruct b as [|y b]; [discriminate Hl | injection Hl as Hl].
    cbn [xorb_list]. rewrite !fold_left_cons, bitstep_lin. apply IH. exact Hl.
Qed.

Lemma crc_bits_lin a b : length a = length b ->
  crc_bits (xorb_list a b) = N.lxor (crc_bits a) (crc_bits b).
Proof. intros Hl. exact (fold_bits_lin a b Hl 0 0). Qed.

Lemma bitstep_false c : bitstep c false = round1 c.
Proof. unfold bitstep. cbn [b2n]. rewrite N.lxor_0_r. reflexivity. Qed.

Lemma xorb_list_zeros l : xorb_list (zeros (length l)) l = l.
Proof.
  induction l as [|b l IH]; [reflexivity|].
  cbn [length zeros repeat xorb_list]. rewrite xorb_false_l. f_equal. exact IH.
Qed.

Lemma bits_of_byte_length d : length (bits_of_byte d) = 8%nat.
Proof. reflexivity. Qed.

Lemma byte_alone d : d < 256 -> rounds8 d = fold_left bitstep (bits_of_byte d) 0.
Proof.
  intros Hd. apply N.eqb_eq. revert d Hd.
  apply (sweep1 (fun d => rounds8 d =? fold_left bitstep (bits_of_byte d) 0) 256).
  vm_compute. reflexivity.
Qed.

(* By linearity the register and the byte can be run separately; what is
   left is the fact above about the 256 bytes. *)
Lemma byte_is_8_bitsteps c d : d < 256 ->
  rounds8 (N.lxor c d) = fold_left bitstep (bits_of_byte d) c.
Proof.
  intros Hd.
  rewrite <- (N.lxor_0_r c) at 2.
  rewrite <- (xorb_list_zeros (bits_of_byte d)), bits_of_byte_length.
  rewrite rounds8_lin, fold_bits_lin by reflexivity.
  cbn [zeros repeat fold_left]. rewrite !bitstep_false. f_equal. apply byte_alone, Hd.
Qed.

Lemma fold_bytes_bits data : Forall is_byte data -> forall c,
  fold_left bytestep data c = fold_left bitstep (bits_of_bytes data) c.
Proof.
  induction 1 as [|d data Hd _ IH]; intros c; [reflexivity|].
  cbn [fold_left bits_of_bytes flat_map].
  rewrite fold_left_app, <- byte_is_8_bitsteps by exact Hd. apply IH.
Qed.

Theorem bitwise_is_bit_serial data : Forall is_byte data ->
  crc_bitwise data = crc_bits (bits_of_bytes data).
Proof. intros H. exact (fold_bytes_bits data H 0). Qed.

Lemma bitstep_lt128 c b : c < 128 -> bitstep c b < 128.
Proof.
  intros H. apply round1_lt128, lxor_lt256; [lia | destruct b; reflexivity].
Qed.

Lemma fold_bitstep_lt128 bs : forall c, c < 128 -> fold_left bitstep bs c < 128.
Proof. induction bs as [|b bs IH]; intros c H; [exact H|]. apply IH, bitstep_lt128, H. Qed.

Lemma bits_of_byte_lxor x y :
  bits_of_byte (N.lxor x y) = xorb_list (bits_of_byte x) (bits_of_byte y).
Proof. unfold bits_of_byte. cbn [seq map xorb_list]. rewrite !N.lxor_spec. reflexivity. Qed.

Lemma xorb_list_app a1 : forall b1 a2 b2, length a1 = length b1 ->
  xorb_list (a1 ++ a2) (b1 ++ b2) = xorb_list a1 b1 ++ xorb_list a2 b2.
Proof.
  induction a1 as [|x a1 IH]; intros b1 a2 b2 Hl.
  - destruct b1 as [|y b1]; [reflexivity | discriminate Hl].
  - destruct b1 as [|y b1]; [discriminate Hl | injection Hl as Hl].
    cbn [app xorb_list]. f_equal. apply IH. exact Hl.
Qed.

Lemma byte_of_bits_testbit l : forall i,
  N.testbit (byte_of_bits l) (N.of_nat i) = nth i l false.
Proof.
  induction l as [|b l IH]; intros i; [destruct i; reflexivity|].
  cbn [byte_of_bits]. rewrite N.add_comm.
  destruct i as [|i]; [apply N.testbit_0_r|].
  rewrite Nat2N.inj_succ, N.testbit_succ_r. apply IH.
Qed.

Lemma byte_of_bits_lt l : byte_of_bits l < 2 ^ N.of_nat (length l).
Proof.
  induction l as [|b l IH]; [reflexivity|].
  cbn [byte_of_bits length]. rewrite Nat2N.inj_succ, N.pow_succ_r'.
  destruct b; cbn [b2n]; lia.
Qed.

Lemma byte_of_bits_8 (l : list bool) : length l = 8%nat ->
  byte_of_bits l < 256 /\ bits_of_byte (byte_of_bits l) = l.
Proof.
  intros H. pose proof (byte_of_bits_lt l) as Hlt. rewrite H in Hlt. split; [exact Hlt|].
  unfold bits_of_byte. cbn [seq map]. rewrite !byte_of_bits_testbit.
  do 9 (destruct l as [|? l]; try discriminate). reflexivity.
Qed.

Lemma bytes_of_bits_spec n : forall bs, length bs = (8 * n)%nat ->
  Forall is_byte (bytes_of_bits n bs) /\ bits_of_bytes (bytes_of_bits n bs) = bs
  /\ length (bytes_of_bits n bs) = n.
Proof.
  induction n as [|n IH]; intros bs Hl.
  - destruct bs; [|discriminate]. repeat split. constructor.
  - cbn [bytes_of_bits bits_of_bytes flat_map].
    assert (H8 : length (firstn 8 bs) = 8%nat) by (rewrite firstn_length; lia).
    assert (Hr : length (skipn 8 bs) = (8 * n)%nat) by (rewrite skipn_length; lia).
    destruct (byte_of_bits_8 _ H8) as [Hb Hbits].
    destruct (IH _ Hr) as (Hf & Hbs & Hlen).
    split; [constructor; assumption|]. split.
    + rewrite Hbits. fold (bits_of_bytes (bytes_of_bits n (skipn 8 bs))). rewrite Hbs.
      apply firstn_skipn.
    + simpl. f_equal. exact Hlen.
Qed.

Lemma bits_of_bytes_length data : length (bits_of_bytes data) = (8 * length data)%nat.
Proof.
  induction data as [|d data IH]; [reflexivity|].
  cbn [bits_of_bytes flat_map]. rewrite app_length. fold (bits_of_bytes data).
  rewrite IH, bits_of_byte_length. simpl. lia.
Qed.

Lemma bits_of_xor_bytes a : forall b, length a = length b ->
  bits_of_bytes (xor_bytes a b) = xorb_list (bits_of_bytes a) (bits_of_bytes b).
Proof.
  induction a as [|x a IH]; intros b Hl.
  - destruct b as [|y b]; [reflexivity | discriminate Hl].
  - destruct b as [|y b]; [discriminate Hl | injection Hl as Hl].
    cbn [xor_bytes bits_of_bytes flat_map].
    rewrite xorb_list_app by reflexivity. rewrite bits_of_byte_lxor. f_equal.
    apply IH. exact Hl.
Qed.

Lemma xor_bytes_length a : forall b, length (xor_bytes a b) = length a.
Proof.
  induction a as [|x a IH]; intros [|y b]; try reflexivity.
  cbn [xor_bytes length]. f_equal. apply IH.
Qed.

Theorem apply_error_flips err data : length err = (8 * length data)%nat ->
  bits_of_bytes (apply_error err data) = xorb_list (bits_of_bytes data) err
  /\ length (apply_error err data) = length data.
Proof.
  intros Hl. unfold apply_error.
  destruct (bytes_of_bits_spec (length data) err Hl) as (Hf & Hbs & Hlen).
  split.
  - rewrite bits_of_xor_bytes by (symmetry; exact Hlen). rewrite Hbs. reflexivity.
  - apply xor_bytes_length.
Qed.

Theorem crc_of_error err data : length err = (8 * length data)%nat ->
  crc_bitwise (apply_error err data) = N.lxor (crc_bitwise data) (crc_bits err).
Proof.
  intros Hl. unfold apply_error.
  destruct (bytes_of_bits_spec (length data) err Hl) as (Hf & Hbs & Hlen).
  rewrite crc_linear by (symmetry; exact Hlen).
  f_equal. rewrite bitwise_is_bit_serial by exact Hf. rewrite Hbs. reflexivity.
Qed.

Lemma fold_zeros_0 n : fold_left bitstep (zeros n) 0 = 0.
Proof. induction n as [|n IH]; [reflexivity|]. cbn [zeros repeat fold_left]. exact IH. Qed.

Lemma fold_zeros_nonzero n : forall c, c < 128 -> c <> 0 ->
  fold_left bitstep (zeros n) c <> 0.
Proof.
  induction n as [|n IH]; intros c Hc Hn; [exact Hn|].
  cbn [zeros repeat fold_left]. apply IH.
  - apply bitstep_lt128, Hc.
  - rewrite bitstep_false. apply round1_nonzero; assumption.
Qed.

(* pattern = zeros pre ++ core ++ zeros post: the leading zeros leave the
   register at 0, the trailing ones keep a non-zero register non-zero. *)
Lemma framed_nonzero pre core post :
  fold_left bitstep core 0 <> 0 ->
  crc_bits (zeros pre ++ core ++ zeros post) <> 0.
Proof.
  intros H. unfold crc_bits. fold bitstep. rewrite !fold_left_app, fold_zeros_0.
  apply fold_zeros_nonzero; [apply fold_bitstep_lt128; reflexivity | exact H].
Qed.

Theorem single_bit_nonzero pre post : crc_bits (single_bit pre post) <> 0.
Proof. unfold single_bit. apply framed_nonzero. vm_compute. discriminate. Qed.

Fixpoint all_bools (n : nat) : list (list bool) :=
  match n with
  | O => [[]]
  | S k => map (cons true) (all_bools k) ++ map (cons false) (all_bools k)
  end.
Lemma in_all_bools l : In l (all_bools (length l)).
Proof.
  induction l as [|b l IH]; [left; reflexivity|].
  cbn [length all_bools]. apply in_or_app. destruct b; [left | right]; apply in_map, IH.
Qed.

Definition burst_core_ok (mid : list bool) : bool :=
  negb (fold_left bitstep (true :: mid) 0 =? 0).

Lemma burst_sweep : forallb (fun n => forallb burst_core_ok (all_bools n)) (seq 0 7) = true.
Proof. vm_compute. reflexivity. Qed.

Theorem burst_nonzero pre mid post : (length mid <= 6)%nat ->
  crc_bits (burst pre mid post) <> 0.
Proof.
  intros Hl. unfold burst.
  (* [true] ++ mid ++ zeros post is (true :: mid) ++ zeros post by computation *)
  apply (framed_nonzero pre (true :: mid) post).
  pose proof burst_sweep as S. rewrite forallb_forall in S.
  specialize (S (length mid)). rewrite forallb_forall in S.
  assert (Hin : In (length mid) (seq 0 7)) by (apply in_seq; lia).
  specialize (S Hin mid (in_all_bools mid)).
  unfold burst_core_ok in S. apply negb_true_iff, N.eqb_neq in S. exact S.
Qed.

Definition double_ok (gap : nat) : bool :=
  negb (fold_left bitstep ([true] ++ zeros gap ++ [true]) 0 =? 0).

Lemma double_sweep : forallb double_ok (seq 0 126) = true.
Proof. vm_compute. reflexivity. Qed.

(* the two flipped bits are gap+1 positions apart *)
Theorem double_bit_nonzero pre gap post : (gap + 1 < 127)%nat ->
  crc_bits (double_bit pre gap post) <> 0.
Proof.
  intros Hg. unfold double_bit. rewrite (app_assoc (zeros gap) [true] (zeros post)).
  apply (framed_nonzero pre ([true] ++ zeros gap ++ [true]) post).
  pose proof double_sweep as S. rewrite forallb_forall in S.
  assert (Hin : In gap (seq 0 126)) by (apply in_seq; lia).
  apply S, negb_true_iff, N.eqb_neq in Hin. exact Hin.
Qed.

(* The period of the register is exactly 127: the bound in the double-bit
   clause is tight (two flips 127 apart are NOT detected). *)
Example double_bit_127_undetected : crc_bits (double_bit 0 126 0) = 0.
Proof. vm_compute. reflexivity. Qed.

Lemma lxor_ne_self a e : e <> 0 -> N.lxor a e <> a.
Proof.
  intros He E. apply He.
  assert (H : N.lxor a (N.lxor a e) = N.lxor a a) by (rewrite E; reflexivity).
  rewrite <- N.lxor_assoc, N.lxor_nilpotent, N.lxor_0_l in H. exact H.
Qed.

Theorem detects err data :
  length err = (8 * length data)%nat -> crc_bits err <> 0 ->
  crc_bitwise (apply_error err data) <> crc_bitwise data.
Proof. intros Hl He. rewrite crc_of_error by exact Hl. apply lxor_ne_self, He. Qed.

Lemma apply_error_is_byte err data : Forall is_byte data ->
  length err = (8 * length data)%nat -> Forall is_byte (apply_error err data).
Proof.
  intros Hd Hl. unfold apply_error. apply xor_bytes_is_byte; [exact Hd|].
  apply bytes_of_bits_spec, Hl.
Qed.

Theorem table_detects T err : table_ok T = true -> crc_bits err <> 0 ->
  forall data, Forall is_byte data -> length err = (8 * length data)%nat ->
  crc_table T (apply_error err data) <> crc_table T data.
Proof.
  intros HT He data Hd Hl.
  rewrite (table_equals_bitwise T (apply_error err data) HT (apply_error_is_byte err data Hd Hl)),
          (table_equals_bitwise T data HT Hd).
  apply detects; [exact Hl | exact He].
Qed.
