(* Theorems about Tunable/Model.v, for every string / value / world / history.
   Histories come in three layers: [run] (worlds), [xrun] (and the owners'
   truthiness), [grun] (and the clock, timestamps, classes that change).  That
   a read returns the latest write is proved once, for [run] ([nt_read_latest],
   [read_latest]); the upper layers reduce to it by erasure ([xrun_erase];
   [grun_erase] with [timely_all_accepted]). *)
From Coq Require Import String Ascii List Bool ZArith NArith Arith Lia Permutation.
From RV Require Import Tunable.Model.
Import ListNotations.
Open Scope string_scope.

Lemma append_assoc : forall a b c : string, (a ++ b) ++ c = a ++ (b ++ c).
Proof. induction a; intros; simpl; [reflexivity | now rewrite IHa]. Qed.

Lemma append_inj_l : forall p a b : string, p ++ a = p ++ b -> a = b.
Proof.
  induction p; simpl; intros a0 b0 H; [assumption|].
  injection H as H. now apply IHp.
Qed.

Lemma string_length_append : forall a b : string,
  String.length (a ++ b) = (String.length a + String.length b)%nat.
Proof. induction a as [|c a IH]; intros b; simpl; [reflexivity | now rewrite IH]. Qed.

Lemma append_inj_r : forall a b r : string, a ++ r = b ++ r -> a = b.
Proof.
  induction a as [|c a IH]; intros [|d b] r H; simpl in H.
  - reflexivity.
  - apply (f_equal String.length) in H. simpl in H. rewrite string_length_append in H. lia.
  - apply (f_equal String.length) in H. simpl in H. rewrite string_length_append in H. lia.
  - injection H as -> H. f_equal. now apply (IH b r).
Qed.

Lemma no_slash_cons : forall c s, no_slash (String c s) = true ->
  c <> "/"%char /\ no_slash s = true.
Proof.
  simpl; intros c s H. apply andb_true_iff in H as [H1 H2]. split; [|assumption].
  apply negb_true_iff in H1. now apply Ascii.eqb_neq in H1.
Qed.

Lemma no_slash_app_slash : forall y b, no_slash (y ++ String "/"%char b) = false.
Proof.
  induction y; intros; simpl; [reflexivity|].
  rewrite IHy. apply andb_false_r.
Qed.

(* the first "/"-free component of a path is determined by the path *)
Lemma first_component_inj : forall a b r1 r2,
  no_slash a = true -> no_slash b = true ->
  a ++ "/" ++ r1 = b ++ "/" ++ r2 -> a = b /\ r1 = r2.
Proof.
  induction a as [|c a IH]; intros [|d b] r1 r2 Ha Hb H; simpl in H.
  - injection H as H. now split.
  - injection H as Hc _. apply no_slash_cons in Hb as [Hd _]. now subst d.
  - injection H as Hc _. apply no_slash_cons in Ha as [Hd _]. now subst c.
  - injection H as Hc H. apply no_slash_cons in Ha as [_ Ha].
    apply no_slash_cons in Hb as [_ Hb].
    destruct (IH b r1 r2 Ha Hb H) as [E1 E2]. subst. now split.
Qed.

(* the last "/"-free component of a path is determined by the path *)
Lemma last_component_inj : forall x y a b,
  no_slash a = true -> no_slash b = true ->
  x ++ "/" ++ a = y ++ "/" ++ b -> x = y /\ a = b.
Proof.
  induction x as [|c x IH]; intros [|d y] a b Ha Hb H; simpl in H.
  - injection H as H. now split.
  - injection H as _ H. rewrite H in Ha. now rewrite no_slash_app_slash in Ha.
  - injection H as _ H. rewrite <- H in Hb. now rewrite no_slash_app_slash in Hb.
  - injection H as Hc H. destruct (IH y a b Ha Hb H) as [E1 E2]. subst. now split.
Qed.

Lemma starts_with_app : forall p r, starts_with p (p ++ r) = true.
Proof. induction p; intros; simpl; [reflexivity|]. now rewrite Ascii.eqb_refl, IHp. Qed.

Lemma starts_with_split : forall p s, starts_with p s = true ->
  s = p ++ drop (String.length p) s.
Proof.
  induction p as [|c p IH]; intros s H; simpl in *; [reflexivity|].
  destruct s as [|d s]; [discriminate|].
  apply andb_true_iff in H as [H1 H2]. apply Ascii.eqb_eq in H1. subst d.
  simpl. now rewrite <- (IH s H2).
Qed.

Lemma starts_with_iff : forall p s, starts_with p s = true <-> exists r, s = p ++ r.
Proof.
  intros p s; split.
  - intros H. eexists. now apply starts_with_split.
  - intros [r ->]. apply starts_with_app.
Qed.

Lemma drop_app : forall p r, drop (String.length p) (p ++ r) = r.
Proof. induction p; intros; simpl; [reflexivity | apply IHp]. Qed.

(* [simpl] on [setup_loop] then leaves its test [starts_with "_" (d_attr d)] as
   it is written, to be destructed or rewritten by that name *)
Local Arguments starts_with : simpl never.

(* The key is plain concatenation: the owner's table, "/", then what the
   tunable itself contributes -- the same for every owner. *)
Definition key_rest (s : option string) (n : string) : string :=
  match s with
  | Some x => if String.eqb x "" then n else x ++ "/" ++ n
  | None => n
  end.

Lemma key_in_rest : forall pfx s n, key_in pfx s n = pfx ++ "/" ++ key_rest s n.
Proof. intros pfx [x|] n; simpl; [destruct (String.eqb x "")|]; reflexivity. Qed.

(* ... and it ends in "/", the attribute name *)
Lemma key_rest_last : forall s n, exists x, "/" ++ key_rest s n = x ++ "/" ++ n.
Proof.
  intros [x|] n; simpl; [destruct (String.eqb x "")|];
    [exists "" | exists ("/" ++ x) | exists ""]; reflexivity.
Qed.

(* an empty subtable string is "no subtable" (`if prop._ntsubtable:`) *)
Lemma key_empty_subtable : forall p c A, key_of p c (Some "") A = key_of p c None A.
Proof. reflexivity. Qed.

(* a non-empty subtable string S is inserted VERBATIM, slashes, dots and all *)
Theorem key_verbatim : forall p c S A, S <> "" ->
  key_of p c (Some S) A = key_prefix p c ++ "/" ++ S ++ "/" ++ A.
Proof.
  intros p c S A HS. unfold key_of. rewrite key_in_rest. cbn [key_rest].
  apply String.eqb_neq in HS. now rewrite HS.
Qed.

(* an owner is its kind and its name *)
Lemma owner_eq : forall o1 o2,
  owner_prefix o1 = owner_prefix o2 -> owner_cname o1 = owner_cname o2 -> o1 = o2.
Proof. intros [n1|n1|] [n2|n2|] Hk Hn; simpl in *; congruence. Qed.

(* the owner's table starts a path with the owner's kind; what follows the
   kind is the owner's name and the rest of the path *)
Lemma owner_pfx_app : forall o1 o2 s1 s2,
  owner_pfx o1 ++ s1 = owner_pfx o2 ++ s2 ->
  owner_prefix o1 = owner_prefix o2 /\ owner_cname o1 ++ s1 = owner_cname o2 ++ s2.
Proof.
  intros [n1|n1|] [n2|n2|] s1 s2 H; try discriminate H; split; try reflexivity.
  - exact (append_inj_l "/components/" (n1 ++ s1) (n2 ++ s2) H).
  - exact (append_inj_l "/autonomous/" (n1 ++ s1) (n2 ++ s2) H).
  - exact (append_inj_l "/" ("robot" ++ s1) ("robot" ++ s2) H).
Qed.

(* a path below the table of an owner with a "/"-free name determines the owner *)
Lemma owner_path_inj : forall o1 o2 r1 r2,
  owner_name_ok o1 = true -> owner_name_ok o2 = true ->
  owner_pfx o1 ++ "/" ++ r1 = owner_pfx o2 ++ "/" ++ r2 -> o1 = o2.
Proof.
  intros o1 o2 r1 r2 H1 H2 H. apply owner_pfx_app in H as [Hk Hn].
  assert (N : forall o, owner_name_ok o = true -> no_slash (owner_cname o) = true)
    by (now intros []).
  exact (owner_eq _ _ Hk (proj1 (first_component_inj _ _ _ _ (N _ H1) (N _ H2) Hn))).
Qed.

Lemma owner_keys_disjoint : forall o1 o2 s1 a1 s2 a2,
  owner_name_ok o1 = true -> owner_name_ok o2 = true -> o1 <> o2 ->
  owner_key o1 s1 a1 <> owner_key o2 s2 a2.
Proof.
  intros o1 o2 s1 a1 s2 a2 H1 H2 Hne E. unfold owner_key, key_of in E.
  rewrite !key_in_rest in E. exact (Hne (owner_path_inj o1 o2 _ _ H1 H2 E)).
Qed.

(* within one owner the key determines the attribute *)
Lemma key_in_inj : forall pfx s1 a1 s2 a2,
  no_slash a1 = true -> no_slash a2 = true ->
  key_in pfx s1 a1 = key_in pfx s2 a2 -> a1 = a2.
Proof.
  intros pfx s1 a1 s2 a2 H1 H2 E. rewrite !key_in_rest in E. apply append_inj_l in E.
  destruct (key_rest_last s1 a1) as [x1 E1], (key_rest_last s2 a2) as [x2 E2].
  rewrite E1, E2 in E. exact (proj2 (last_component_inj _ _ _ _ H1 H2 E)).
Qed.

(* same prefix, same tunable (subtable, attribute), names with ANY characters *)
Theorem key_of_inj_name : forall p c1 c2 s a,
  key_of p c1 s a = key_of p c2 s a -> c1 = c2.
Proof.
  intros p c1 c2 s a H. unfold key_of in H. rewrite !key_in_rest in H.
  apply append_inj_r in H. unfold key_prefix in H. destruct p as [p|].
  - rewrite <- !append_assoc in H. now apply append_inj_l in H.
  - now apply append_inj_l in H.
Qed.

(* ... and across the three documented owner kinds *)
Theorem owner_key_inj : forall o1 o2 s a, owner_key o1 s a = owner_key o2 s a -> o1 = o2.
Proof.
  intros o1 o2 s a H. unfold owner_key, key_of in H. rewrite !key_in_rest in H.
  apply (owner_pfx_app o1 o2) in H as [Hk Hn]. exact (owner_eq _ _ Hk (append_inj_r _ _ _ Hn)).
Qed.

Lemma nt_get_set_same : forall m k ty v, nt_get (nt_set m k ty v) k = Some (ty, v).
Proof.
  induction m as [|[k' tv] m IH]; intros; simpl.
  - now rewrite String.eqb_refl.
  - destruct (String.eqb k' k) eqn:E; simpl; rewrite E; [reflexivity | apply IH].
Qed.

Lemma nt_get_set_other : forall m k ty v k', k <> k' ->
  nt_get (nt_set m k ty v) k' = nt_get m k'.
Proof.
  induction m as [|[k0 tv] m IH]; intros k ty v k' Hne; simpl.
  - apply String.eqb_neq in Hne. now rewrite Hne.
  - destruct (String.eqb k0 k) eqn:E; simpl.
    + apply String.eqb_eq in E. subst k0. apply String.eqb_neq in Hne. now rewrite Hne.
    + destruct (String.eqb k0 k'); [reflexivity | now apply IH].
Qed.

Lemma nt_get_set_default_same : forall m k ty v,
  nt_get (nt_set_default m k ty v) k =
  match nt_get m k with Some tv => Some tv | None => Some (ty, v) end.
Proof.
  intros. unfold nt_set_default. destruct (nt_get m k) eqn:E; [exact E | apply nt_get_set_same].
Qed.

Lemma nt_get_set_default_other : forall m k ty v k', k <> k' ->
  nt_get (nt_set_default m k ty v) k' = nt_get m k'.
Proof.
  intros. unfold nt_set_default. destruct (nt_get m k); [reflexivity | now apply nt_get_set_other].
Qed.

Definition nt_val (m : ntmap) (k : string) : option value := option_map snd (nt_get m k).

Lemma nt_val_set : forall m k' ty v k,
  nt_val (nt_set m k' ty v) k = if String.eqb k' k then Some v else nt_val m k.
Proof.
  intros. unfold nt_val. destruct (String.eqb k' k) eqn:E.
  - apply String.eqb_eq in E. subst. now rewrite nt_get_set_same.
  - apply String.eqb_neq in E. now rewrite nt_get_set_other.
Qed.

Lemma bind_get_In : forall b a e, bind_get b a = Some e -> In (a, e) b.
Proof.
  induction b as [|[a0 e0] b IH]; intros a e H; [discriminate|].
  simpl in H. destruct (String.eqb a0 a) eqn:E.
  - apply String.eqb_eq in E. subst. injection H as ->. now left.
  - right. now apply IH.
Qed.

Lemma inst_get_cons_same : forall i b l, inst_get ((i, b) :: l) i = Some b.
Proof. intros. simpl. now rewrite Nat.eqb_refl. Qed.

Lemma inst_get_cons_other : forall i j b l, j <> i -> inst_get ((j, b) :: l) i = inst_get l i.
Proof. intros i j b l Hne. simpl. apply Nat.eqb_neq in Hne. now rewrite Hne. Qed.

(* attribute access on a bound tunable goes to the topic at its key *)
Lemma py_read_bound : forall w i b a k ty d,
  inst_get (w_inst w) i = Some b -> bind_get b a = Some (k, ty, d) ->
  py_read w i a = EvVal (match nt_val (w_nt w) k with Some v => v | None => d end).
Proof.
  intros w i b a k ty d Hi Ha. unfold py_read, nt_val. rewrite Hi, Ha.
  now destruct (nt_get (w_nt w) k) as [[t v]|].
Qed.

Lemma step_write_bound : forall w i b a k ty d v,
  inst_get (w_inst w) i = Some b -> bind_get b a = Some (k, ty, d) ->
  step w (PyWrite i a v) = (mkworld (nt_set (w_nt w) k ty (entry_value ty v)) (w_inst w), EvWrote).
Proof. intros w i b a k ty d v Hi Ha. simpl. now rewrite Hi, Ha. Qed.

Theorem bound_write_reaches_topic : forall w i b a k ty d v,
  inst_get (w_inst w) i = Some b -> bind_get b a = Some (k, ty, d) ->
  nt_get (w_nt (fst (step w (PyWrite i a v)))) k = Some (ty, entry_value ty v).
Proof. intros. erewrite step_write_bound by eassumption. apply nt_get_set_same. Qed.

Theorem bound_read_sees_topic : forall w i b a k ty d t v,
  inst_get (w_inst w) i = Some b -> bind_get b a = Some (k, ty, d) ->
  nt_get (w_nt w) k = Some (t, v) ->
  py_read w i a = EvVal v.
Proof.
  intros w i b a k ty d t v Hi Ha Hk. rewrite (py_read_bound w i b a k ty d Hi Ha).
  unfold nt_val. now rewrite Hk.
Qed.

(* instance.attr = v ; instance.attr  -- what the entry made of v *)
Theorem py_write_read_back : forall w i b a k ty d v,
  inst_get (w_inst w) i = Some b -> bind_get b a = Some (k, ty, d) ->
  py_read (fst (step w (PyWrite i a v))) i a = EvVal (entry_value ty v).
Proof.
  intros w i b a k ty d v Hi Ha. rewrite (step_write_bound _ _ _ _ _ _ _ v Hi Ha).
  rewrite (py_read_bound _ i b a k ty d); [|exact Hi|exact Ha]. cbn [fst w_nt].
  now rewrite nt_val_set, String.eqb_refl.
Qed.

(* [run] and [xrun] thread a world through a history and collect the events;
   what follows from that shape alone *)
Section Runs.
  Variables (W O E : Type) (step : W -> O -> W * E) (run : W -> list O -> W * list E).
  Hypothesis run_nil : forall w, run w [] = (w, []).
  Hypothesis run_cons : forall w o r,
    run w (o :: r) = (fst (run (fst (step w o)) r), snd (step w o) :: snd (run (fst (step w o)) r)).

  Lemma runs_app : forall h1 h2 w,
    run w (h1 ++ h2)%list =
    (fst (run (fst (run w h1)) h2), (snd (run w h1) ++ snd (run (fst (run w h1)) h2))%list).
  Proof.
    induction h1 as [|o h1 IH]; intros.
    - rewrite run_nil. simpl. now destruct (run w h2).
    - rewrite <- app_comm_cons, !run_cons, IH. reflexivity.
  Qed.

  (* the event an operation in the middle of a history emits *)
  Lemma runs_event_at : forall h1 o h2 w d,
    nth (length h1) (snd (run w (h1 ++ o :: h2)%list)) d = snd (step (fst (run w h1)) o).
  Proof.
    induction h1 as [|o' h1 IH]; intros; cbn [app length]; rewrite !run_cons; cbn [fst snd nth].
    - now rewrite run_nil.
    - apply IH.
  Qed.
End Runs.

Lemma run_cons : forall w o r,
  run w (o :: r) = (fst (run (fst (step w o)) r), snd (step w o) :: snd (run (fst (step w o)) r)).
Proof.
  intros. simpl. destruct (step w o) as [w1 e]. simpl. destruct (run w1 r). reflexivity.
Qed.

Lemma run_event_at : forall h1 o h2 w d,
  nth (length h1) (snd (run w (h1 ++ o :: h2)%list)) d = snd (step (fst (run w h1)) o).
Proof. exact (runs_event_at _ _ _ step run (fun _ => eq_refl) run_cons). Qed.

Definition no_setup (h : list op) : bool := forallb (fun o => negb (is_setup o)) h.

Lemma step_inst : forall w o, is_setup o = false -> w_inst (fst (step w o)) = w_inst w.
Proof.
  intros w [i cls p c|i a v|i a|k ty v|k] H; try discriminate H; simpl; try reflexivity.
  destruct (inst_get (w_inst w) i) as [b|]; [|reflexivity].
  destruct (bind_get b a) as [[[k ty] d]|]; reflexivity.
Qed.

Lemma op_writes_ext : forall w1 w2 o k, w_inst w1 = w_inst w2 ->
  op_writes w1 o k = op_writes w2 o k.
Proof. intros w1 w2 [] k E; simpl; try reflexivity. now rewrite E. Qed.

Lemma last_write_ext : forall w1 w2 h k, w_inst w1 = w_inst w2 ->
  last_write w1 h k = last_write w2 h k.
Proof.
  intros w1 w2 h k E. induction h as [|o h IH]; simpl; [reflexivity|].
  rewrite IH. now rewrite (op_writes_ext w1 w2 o k E).
Qed.

Lemma step_nt_val : forall w o k, is_setup o = false ->
  nt_val (w_nt (fst (step w o))) k =
  match op_writes w o k with Some v => Some v | None => nt_val (w_nt w) k end.
Proof.
  intros w [i cls p c|i a v|i a|k' ty v|k'] k H; try discriminate H; simpl; try reflexivity.
  - (* PyWrite *) destruct (inst_get (w_inst w) i) as [b|]; [|reflexivity].
    destruct (bind_get b a) as [[[k' ty] d]|]; [|reflexivity]. simpl.
    rewrite nt_val_set. now destruct (String.eqb k' k).
  - (* NtWrite *) rewrite nt_val_set. now destruct (String.eqb k' k).
Qed.

Lemma run_inst : forall h w, no_setup h = true -> w_inst (fst (run w h)) = w_inst w.
Proof.
  induction h as [|o h IH]; intros w H; [reflexivity|].
  simpl in H. apply andb_true_iff in H as [H1 H2]. apply negb_true_iff in H1.
  rewrite run_cons. simpl. rewrite (IH _ H2). now apply step_inst.
Qed.

(* After any interleaving [h] of attribute writes/reads and NT-side
   writes/reads, on any instances of any world [w], the topic k holds the most
   recent write to k, and what it held before [h] when [h] holds no such write. *)
Theorem nt_read_latest : forall w h k,
  no_setup h = true ->
  nt_val (w_nt (fst (run w h))) k =
  match last_write w h k with Some v => Some v | None => nt_val (w_nt w) k end.
Proof.
  intros w h; revert w. induction h as [|o h IH]; intros w k H; [reflexivity|].
  simpl in H. apply andb_true_iff in H as [H1 H2]. apply negb_true_iff in H1.
  rewrite run_cons. cbn [fst last_write]. rewrite (IH _ k H2).
  rewrite (last_write_ext _ w h k (step_inst w o H1)).
  destruct (last_write w h k); [reflexivity|]. now apply step_nt_val.
Qed.

(* ... so reading i.a gives the most recent write to the key i.a is bound to *)
Theorem read_latest : forall w h i b a k ty d,
  no_setup h = true ->
  inst_get (w_inst w) i = Some b -> bind_get b a = Some (k, ty, d) ->
  py_read (fst (run w h)) i a =
  match last_write w h k with Some v => EvVal v | None => py_read w i a end.
Proof.
  intros w h i b a k ty d Hh Hi Ha.
  rewrite (py_read_bound w i b a k ty d Hi Ha).
  rewrite (py_read_bound _ i b a k ty d) by (rewrite ?run_inst; assumption).
  rewrite nt_read_latest by assumption. now destruct (last_write w h k).
Qed.

(* the same, for the event a read emits in the middle of a history *)
Theorem read_latest_event : forall w h1 h2 i b a k ty d,
  no_setup h1 = true ->
  inst_get (w_inst w) i = Some b -> bind_get b a = Some (k, ty, d) ->
  nth (length h1) (snd (run w (h1 ++ PyRead i a :: h2)%list)) EvErr =
  match last_write w h1 k with Some v => EvVal v | None => py_read w i a end.
Proof. intros. rewrite run_event_at. eapply read_latest; eassumption. Qed.

Definition decl_key (pfx : string) (d : decl) : string :=
  key_in pfx (d_subtable d) (d_attr d).

(* the list the class statement leaves: the declarations in order, each with
   the topic its own statement gave *)
Lemma class_topics_spec : forall cls ds, class_topics cls = Some ds ->
  map fst ds = cls /\
  forall d ty, In (d, ty) ds -> decl_topic (d_default d) (d_hint d) = Ok ty.
Proof.
  induction cls as [|d0 cls IH]; intros ds H; simpl in H.
  - injection H as <-. now split.
  - destruct (decl_topic (d_default d0) (d_hint d0)) as [t| |] eqn:E; try discriminate.
    destruct (class_topics cls) as [l|]; [|discriminate]. injection H as <-.
    destruct (IH l eq_refl) as [Hf Ht]. split; [simpl; now rewrite Hf|].
    intros d ty [Hd|Hd]; [now injection Hd as <- <- | now apply Ht].
Qed.

Lemma class_topics_mem : forall cls ds d ty, class_topics cls = Some ds -> In (d, ty) ds -> In d cls.
Proof.
  intros cls ds d ty H Hin. rewrite <- (proj1 (class_topics_spec _ _ H)). apply in_map_iff. now exists (d, ty).
Qed.

Lemma class_topics_in : forall cls ds d, class_topics cls = Some ds -> In d cls ->
  exists ty, In (d, ty) ds /\ decl_topic (d_default d) (d_hint d) = Ok ty.
Proof.
  intros cls ds d H Hin. destruct (class_topics_spec cls ds H) as [Hf Ht].
  rewrite <- Hf in Hin. apply in_map_iff in Hin as [[d' ty] [<- Hin]].
  exists ty. split; [exact Hin | exact (Ht _ _ Hin)].
Qed.

Lemma step_setup : forall w i cls p c ds,
  class_topics cls = Some ds ->
  step w (Setup i cls p c) =
  (mkworld (fst (setup_loop (key_prefix p c) ds (w_nt w) []))
           ((i, snd (setup_loop (key_prefix p c) ds (w_nt w) [])) :: w_inst w),
   EvSetup true).
Proof.
  intros. simpl. rewrite H. now destruct (setup_loop (key_prefix p c) ds (w_nt w) []).
Qed.

(* a Setup that reports success: the class statement gave every tunable a
   topic, in order, and the step is the loop over them *)
Lemma step_setup_inv : forall w i cls p c,
  snd (step w (Setup i cls p c)) = EvSetup true ->
  exists ds, class_topics cls = Some ds /\
    map (fun x => d_attr (fst x)) ds = map d_attr cls /\
    step w (Setup i cls p c) =
      (mkworld (fst (setup_loop (key_prefix p c) ds (w_nt w) []))
               ((i, snd (setup_loop (key_prefix p c) ds (w_nt w) [])) :: w_inst w),
       EvSetup true).
Proof.
  intros w i cls p c Hok.
  destruct (class_topics cls) as [ds|] eqn:Hc; [|simpl in Hok; rewrite Hc in Hok; discriminate Hok].
  exists ds. split; [reflexivity|]. split; [|exact (step_setup w i cls p c ds Hc)].
  now rewrite <- (proj1 (class_topics_spec _ _ Hc)), map_map.
Qed.

(* keys the loop does not mention keep their topic *)
Lemma setup_loop_nt_notin : forall pfx ds nt b k,
  (forall d ty, In (d, ty) ds -> public d = true -> decl_key pfx d <> k) ->
  nt_get (fst (setup_loop pfx ds nt b)) k = nt_get nt k.
Proof.
  induction ds as [|[d ty] ds IH]; intros nt b k H; [reflexivity|].
  simpl. destruct (starts_with "_" (d_attr d)) eqn:E.
  - apply IH. intros d' ty' Hin. apply (H d' ty'). now right.
  - rewrite IH by (intros d' ty' Hin; apply (H d' ty'); now right).
    assert (Hk : decl_key pfx d <> k).
    { apply (H d ty); [now left|]. unfold public. now rewrite E. }
    destruct (d_wd d); [now apply nt_get_set_other | now apply nt_get_set_default_other].
Qed.

(* names the loop does not mention keep their binding *)
Lemma setup_loop_bind_notin : forall pfx ds nt b a,
  (forall d ty, In (d, ty) ds -> d_attr d <> a) ->
  bind_get (snd (setup_loop pfx ds nt b)) a = bind_get b a.
Proof.
  induction ds as [|[d ty] ds IH]; intros nt b a H; [reflexivity|].
  simpl. destruct (starts_with "_" (d_attr d)).
  - apply IH. intros d' ty' Hin. apply (H d' ty'). now right.
  - rewrite IH by (intros d' ty' Hin; apply (H d' ty'); now right).
    simpl. assert (Hd : d_attr d <> a) by (apply (H d ty); now left).
    apply String.eqb_neq in Hd. now rewrite Hd.
Qed.

Lemma attr_notin : forall (ds : list (decl * ntype)) a,
  ~ In a (map (fun x => d_attr (fst x)) ds) -> forall d ty, In (d, ty) ds -> d_attr d <> a.
Proof. intros ds a H d ty Hin <-. apply H, in_map_iff. now exists (d, ty). Qed.

(* the binding: every public tunable is bound to its documented key, with the
   topic type of its declaration *)
Lemma setup_loop_binds : forall pfx ds nt b d ty,
  NoDup (map (fun x => d_attr (fst x)) ds) -> In (d, ty) ds -> public d = true ->
  bind_get (snd (setup_loop pfx ds nt b)) (d_attr d) =
  Some (decl_key pfx d, ty, entry_value ty (d_default d)).
Proof.
  induction ds as [|[d0 t0] ds IH]; intros nt b d ty Hnd Hin Hpub; [destruct Hin|].
  simpl in Hnd. apply NoDup_cons_iff in Hnd as [Hnotin Hnd'].
  simpl. destruct Hin as [Hin|Hin].
  - injection Hin as -> ->. unfold public in Hpub. apply negb_true_iff in Hpub. rewrite Hpub.
    rewrite setup_loop_bind_notin by exact (attr_notin _ _ Hnotin).
    simpl. now rewrite String.eqb_refl.
  - destruct (starts_with "_" (d_attr d0)); now apply IH.
Qed.

(* the topic: the default is written when writeDefault is set or the topic
   has no value.  Distinct "/"-free attribute names give distinct keys, so no
   other iteration touches the topic. *)
Lemma setup_loop_write_default : forall pfx ds nt b d ty,
  NoDup (map (fun x => d_attr (fst x)) ds) ->
  (forall d' ty', In (d', ty') ds -> no_slash (d_attr d') = true) ->
  In (d, ty) ds -> public d = true ->
  nt_get (fst (setup_loop pfx ds nt b)) (decl_key pfx d) =
  if d_wd d then Some (ty, entry_value ty (d_default d))
  else match nt_get nt (decl_key pfx d) with
       | Some tv => Some tv
       | None => Some (ty, entry_value ty (d_default d))
       end.
Proof.
  induction ds as [|[d0 t0] ds IH]; intros nt b d ty Hnd Hns Hin Hpub; [destruct Hin|].
  simpl in Hnd. apply NoDup_cons_iff in Hnd as [Hnotin Hnd'].
  assert (Hns' : forall d' ty', In (d', ty') ds -> no_slash (d_attr d') = true)
    by (intros d' ty' H'; apply (Hns d' ty'); now right).
  pose proof (Hns d0 t0 (or_introl eq_refl)) as Hns0.
  simpl. destruct Hin as [Hin|Hin].
  - injection Hin as -> ->. unfold public in Hpub. apply negb_true_iff in Hpub. rewrite Hpub.
    rewrite setup_loop_nt_notin.
    + destruct (d_wd d); [apply nt_get_set_same | apply nt_get_set_default_same].
    + intros d' ty' Hin' _ E. apply (attr_notin _ _ Hnotin d' ty' Hin').
      exact (key_in_inj _ _ _ _ _ (Hns' _ _ Hin') Hns0 E).
  - destruct (starts_with "_" (d_attr d0)); [now apply IH|].
    rewrite (IH _ _ d ty Hnd' Hns' Hin Hpub).
    assert (Hne : decl_key pfx d0 <> decl_key pfx d).
    { intros E. apply (attr_notin _ _ Hnotin d ty Hin).
      symmetry. exact (key_in_inj _ _ _ _ _ Hns0 (Hns' _ _ Hin) E). }
    destruct (d_wd d0); [now rewrite nt_get_set_other | now rewrite nt_get_set_default_other].
Qed.

(* every entry of the binding the loop builds lives under pfx *)
Definition keys_under (pfx : string) (b : binding) : Prop :=
  forall a k ty d, In (a, (k, ty, d)) b -> exists rest, k = pfx ++ "/" ++ rest.

Lemma setup_loop_keys_under : forall pfx ds nt b,
  keys_under pfx b -> keys_under pfx (snd (setup_loop pfx ds nt b)).
Proof.
  induction ds as [|[d ty] ds IH]; intros nt b Hb; [assumption|].
  simpl. destruct (starts_with "_" (d_attr d)); [now apply IH|].
  apply IH. intros a k t v [Hin|Hin]; [|now apply (Hb a k t v)].
  injection Hin as _ <- _ _. eexists. apply key_in_rest.
Qed.

Theorem setup_write_default : forall w i cls p c d,
  NoDup (map d_attr cls) -> (forall d, In d cls -> no_slash (d_attr d) = true) ->
  In d cls -> public d = true ->
  snd (step w (Setup i cls p c)) = EvSetup true ->
  exists ty, decl_topic (d_default d) (d_hint d) = Ok ty /\
  nt_get (w_nt (fst (step w (Setup i cls p c)))) (key_of p c (d_subtable d) (d_attr d)) =
  if d_wd d then Some (ty, entry_value ty (d_default d))
  else match nt_get (w_nt w) (key_of p c (d_subtable d) (d_attr d)) with
       | Some tv => Some tv
       | None => Some (ty, entry_value ty (d_default d))
       end.
Proof.
  intros w i cls p c d Hnd Hns Hin Hpub Hok.
  destruct (step_setup_inv _ _ _ _ _ Hok) as (ds & Hc & Hattrs & ->). rewrite <- Hattrs in Hnd.
  destruct (class_topics_in cls ds d Hc Hin) as [ty [Hmem Hty]].
  exists ty. split; [exact Hty|]. cbn [fst w_nt].
  apply (setup_loop_write_default (key_prefix p c) ds (w_nt w) [] d ty Hnd); [|exact Hmem|exact Hpub].
  intros d' ty' Hin'. exact (Hns _ (class_topics_mem _ _ _ _ Hc Hin')).
Qed.

(* what a Setup must not change: topics that are not keys of the class *)
Theorem setup_untouched : forall w i cls p c k,
  (forall d, In d cls -> public d = true -> key_of p c (d_subtable d) (d_attr d) <> k) ->
  nt_get (w_nt (fst (step w (Setup i cls p c)))) k = nt_get (w_nt w) k.
Proof.
  intros w i cls p c k H. destruct (class_topics cls) as [ds|] eqn:Hc.
  - rewrite (step_setup w i cls p c ds Hc). cbn [fst w_nt].
    apply setup_loop_nt_notin. intros d ty Hin. exact (H d (class_topics_mem _ _ _ _ Hc Hin)).
  - simpl. now rewrite Hc.
Qed.

(* after a Setup every public tunable is bound to the documented key *)
Theorem setup_binds : forall w i cls p c d,
  NoDup (map d_attr cls) -> In d cls -> public d = true ->
  snd (step w (Setup i cls p c)) = EvSetup true ->
  exists b ty, inst_get (w_inst (fst (step w (Setup i cls p c)))) i = Some b /\
    decl_topic (d_default d) (d_hint d) = Ok ty /\
    bind_get b (d_attr d) = Some (key_of p c (d_subtable d) (d_attr d), ty, entry_value ty (d_default d)).
Proof.
  intros w i cls p c d Hnd Hin Hpub Hok.
  destruct (step_setup_inv _ _ _ _ _ Hok) as (ds & Hc & Hattrs & ->). rewrite <- Hattrs in Hnd.
  destruct (class_topics_in cls ds d Hc Hin) as [ty [Hmem Hty]]. cbn [fst w_inst].
  eexists. exists ty. split; [apply inst_get_cons_same|]. split; [exact Hty|].
  exact (setup_loop_binds (key_prefix p c) ds (w_nt w) [] d ty Hnd Hmem Hpub).
Qed.

Definition bound_under (w : world) (i : nat) (o : owner) : Prop :=
  exists b, inst_get (w_inst w) i = Some b /\ keys_under (owner_pfx o) b.

Lemma setup_bound_under : forall w i cls o,
  snd (step w (Setup i cls (owner_prefix o) (owner_cname o))) = EvSetup true ->
  bound_under (fst (step w (Setup i cls (owner_prefix o) (owner_cname o)))) i o.
Proof.
  intros w i cls o Hok. destruct (step_setup_inv _ _ _ _ _ Hok) as (ds & _ & _ & ->).
  cbn [fst]. eexists. split.
  - cbn [w_inst]. apply inst_get_cons_same.
  - apply setup_loop_keys_under. intros a k ty d [].
Qed.

(* operations on instance j, which is (re)bound under owner o2 only *)
Definition op_on (j : nat) (o2 : owner) (x : op) : Prop :=
  match x with
  | Setup j' _ p c => j' = j /\ p = owner_prefix o2 /\ c = owner_cname o2
  | PyWrite j' _ _ => j' = j
  | PyRead j' _ => j' = j
  | NtWrite _ _ _ => False
  | NtRead _ => True
  end.

Lemma bound_under_other : forall w i o x,
  (forall cls p c, x <> Setup i cls p c) ->
  bound_under w i o -> bound_under (fst (step w x)) i o.
Proof.
  intros w i o x Hx [b [Hb Hk]]. exists b. split; [|assumption].
  destruct x as [i' cls p c|i' a v|i' a|k ty v|k]; try assumption.
  - destruct (Nat.eq_dec i' i) as [->|Hne]; [exfalso; now apply (Hx cls p c)|].
    simpl. destruct (class_topics cls) as [ds|]; [|assumption].
    destruct (setup_loop (key_prefix p c) ds (w_nt w) []) as [nt' b'].
    cbn [fst w_inst]. now rewrite inst_get_cons_other.
  - now rewrite step_inst.
Qed.

(* one operation on j: i keeps its binding, j stays under o2, and no topic
   under o1 changes *)
Lemma step_on_j : forall w i j o1 o2 x,
  i <> j -> o1 <> o2 -> owner_name_ok o1 = true -> owner_name_ok o2 = true ->
  bound_under w j o2 -> op_on j o2 x ->
  inst_get (w_inst (fst (step w x))) i = inst_get (w_inst w) i /\
  bound_under (fst (step w x)) j o2 /\
  (forall r, nt_get (w_nt (fst (step w x))) (owner_pfx o1 ++ "/" ++ r) =
             nt_get (w_nt w) (owner_pfx o1 ++ "/" ++ r)).
Proof.
  intros w i j o1 o2 x Hij Ho H1 H2 Hj Hx.
  assert (Hd : forall r rest, owner_pfx o2 ++ "/" ++ rest <> owner_pfx o1 ++ "/" ++ r).
  { intros r rest E. symmetry in E. exact (Ho (owner_path_inj _ _ _ _ H1 H2 E)). }
  (* a step that leaves the world as it is *)
  assert (Same : forall w', w' = w ->
    inst_get (w_inst w') i = inst_get (w_inst w) i /\ bound_under w' j o2 /\
    (forall r, nt_get (w_nt w') (owner_pfx o1 ++ "/" ++ r) =
               nt_get (w_nt w) (owner_pfx o1 ++ "/" ++ r)))
    by (intros w' ->; now repeat split).
  destruct x as [j' cls p c|j' a v|j' a|k ty v|k]; cbn [op_on] in Hx.
  - (* Setup of j under o2 *)
    destruct Hx as [-> [-> ->]].
    destruct (class_topics cls) as [ds|] eqn:Hc; [|apply Same; simpl; now rewrite Hc].
    split; [|split].
    + rewrite (step_setup _ _ _ _ _ ds Hc). cbn [fst w_inst].
      apply inst_get_cons_other. congruence.
    + apply setup_bound_under. now rewrite (step_setup _ _ _ _ _ ds Hc).
    + intros r. rewrite (step_setup _ _ _ _ _ ds Hc). cbn [fst w_nt].
      apply setup_loop_nt_notin. intros d ty _ _. unfold decl_key. rewrite key_in_rest. apply Hd.
  - (* PyWrite on j: to a key under o2, or an error *)
    subst j'. destruct Hj as [b [Hb Hk]].
    destruct (bind_get b a) as [[[k ty] d]|] eqn:Ha; [|apply Same; simpl; now rewrite Hb, Ha].
    rewrite (step_write_bound _ _ _ _ _ _ _ v Hb Ha). cbn [fst w_inst w_nt].
    split; [reflexivity|]. split; [now exists b|].
    intros r. apply nt_get_set_other.
    destruct (Hk a k ty d (bind_get_In _ _ _ Ha)) as [rest ->]. apply Hd.
  - (* PyRead *) now apply Same.
  - (* NtWrite is not an operation on j *) destruct Hx.
  - (* NtRead *) now apply Same.
Qed.

(* No operation on instance j (bound under o2) changes what instance i (bound
   under a different owner o1) reads.  Names contain no "/". *)
Theorem instances_independent : forall h w i j o1 o2,
  i <> j -> o1 <> o2 -> owner_name_ok o1 = true -> owner_name_ok o2 = true ->
  bound_under w i o1 -> bound_under w j o2 ->
  Forall (op_on j o2) h ->
  forall a, py_read (fst (run w h)) i a = py_read w i a.
Proof.
  intros h w i j o1 o2 Hij Ho H1 H2 Hi Hj Hh a.
  assert (G : inst_get (w_inst (fst (run w h))) i = inst_get (w_inst w) i /\
              forall r, nt_get (w_nt (fst (run w h))) (owner_pfx o1 ++ "/" ++ r) =
                        nt_get (w_nt w) (owner_pfx o1 ++ "/" ++ r)).
  { clear Hi a. revert w Hj. induction Hh as [|x h Hx Hh IH]; intros w Hj; [now split|].
    rewrite run_cons. cbn [fst].
    destruct (step_on_j w i j o1 o2 x Hij Ho H1 H2 Hj Hx) as [S1 [S2 S3]].
    destruct (IH _ S2) as [I1 I2]. split; [now rewrite I1|].
    intros r. now rewrite I2. }
  destruct G as [G1 G2]. destruct Hi as [b [Hb Hk]].
  unfold py_read. rewrite G1, Hb. destruct (bind_get b a) as [[[k ty] d]|] eqn:Ha; [|reflexivity].
  destruct (Hk a k ty d (bind_get_In _ _ _ Ha)) as [rest ->]. now rewrite G2.
Qed.

Lemma array_topic_spec : forall b, array_topic b = spec_array b.
Proof. now destruct b. Qed.
Lemma scalar_topic_spec : forall b, scalar_topic b = spec_scalar b.
Proof. now destruct b. Qed.
Lemma array_hint_spec : forall a0,
  match a0 with ABase b => array_topic b | AEllipsis => None end =
  match a0 with ABase b => spec_array b | AEllipsis => None end.
Proof. intros [b|]; [apply array_topic_spec | reflexivity]. Qed.

Lemma base_eqb_refl : forall b, base_eqb b b = true.
Proof. destruct b; simpl; try reflexivity. apply String.eqb_refl. Qed.

Lemma base_eqb_eq : forall a b, base_eqb a b = true <-> a = b.
Proof.
  intros a b; split; [|intros ->; apply base_eqb_refl].
  destruct a, b; simpl; intros H; try discriminate; try reflexivity.
  apply String.eqb_eq in H. now subst.
Qed.

Lemma ntype_eqb_eq : forall a b, ntype_eqb a b = true <-> a = b.
Proof.
  intros a b; split.
  - destruct a, b; simpl; intros H; try discriminate; try reflexivity;
      apply String.eqb_eq in H; now subst.
  - intros ->. destruct b; simpl; try reflexivity; apply String.eqb_refl.
Qed.

Lemma opt_ntype_eqb_eq : forall a b, opt_ntype_eqb a b = true <-> a = b.
Proof.
  intros [a|] [b|]; simpl; split; intros H; try discriminate; try reflexivity.
  - apply ntype_eqb_eq in H. now subst.
  - injection H as ->. now apply ntype_eqb_eq.
Qed.

Lemma forallb_base_all : forall b rest,
  forallb (targ_eqb (ABase b)) rest = true <-> Forall (fun a => a = ABase b) rest.
Proof.
  intros b rest. rewrite forallb_forall, Forall_forall. split; intros H a Ha.
  - specialize (H a Ha). destruct a as [c|]; simpl in H; [|discriminate].
    apply base_eqb_eq in H. now subst.
  - rewrite (H a Ha). simpl. apply base_eqb_refl.
Qed.

(* the test on the arguments of a tuple hint: tuple[T, ...], or all the same *)
Lemma tuple_args_ok_iff : forall b rest,
  tuple_args_ok (ABase b :: rest) = true <->
  rest = [AEllipsis] \/ Forall (fun a => a = ABase b) rest.
Proof.
  intros b rest. cbn [tuple_args_ok]. rewrite orb_true_iff, forallb_base_all.
  split; (intros [H|H]; [left | now right]).
  - now destruct rest as [|[c|] [|a2 rest]].
  - now subst.
Qed.

(* the documented table for tuple hints is that test, then the array table *)
Lemma spec_hint_tuple : forall a0 rest,
  spec_hint (TGen OTuple (a0 :: rest)) =
  if tuple_args_ok (a0 :: rest)
  then match a0 with ABase b => spec_array b | AEllipsis => None end else None.
Proof.
  intros [b|] rest.
  - destruct rest as [|[c|] [|a2 rest]]; reflexivity.
  - now destruct (tuple_args_ok (AEllipsis :: rest)), rest as [|a1 [|a2 rest]].
Qed.

(* the code's table lookup is the documented table, for every type expression *)
Theorem get_topic_type_spec : forall h, get_topic_type h = spec_hint h.
Proof.
  intros [b|o|o args].
  - (* a plain class *) apply scalar_topic_spec.
  - (* a bare list / tuple / Sequence *) reflexivity.
  - destruct args as [|a0 rest]; [now destruct o|].
    destruct o.
    + (* list[a0, ...]: the first argument decides *)
      cbn [get_topic_type is_tuple andb]. destruct a0; [apply array_topic_spec | reflexivity].
    + (* tuple[a0, ...]: the test on the arguments first, on both sides *)
      rewrite spec_hint_tuple. cbn [get_topic_type is_tuple andb].
      destruct (tuple_args_ok (a0 :: rest)); cbn [negb]; [apply array_hint_spec | reflexivity].
    + (* Sequence[a0, ...] *)
      cbn [get_topic_type is_tuple andb]. destruct a0; [apply array_topic_spec | reflexivity].
Qed.

(* _get_topic_type_for_value: a scalar by its type, a non-empty sequence by its
   first element; an empty one raises *)
Lemma topic_for_value_spec : forall v,
  topic_for_value v = match v with
                      | VList [] | VTuple [] => RaiseValueError
                      | _ => Ok (spec_default v)
                      end.
Proof.
  intros [s|[|e l]|[|e l]]; unfold topic_for_value; cbn; try reflexivity. now destruct s.
Qed.

(* tunable.__init__ rejects exactly the defaults that are not publishable
   themselves; the check of an empty sequence is left to __set_name__ *)
Lemma tunable_init_spec : forall v,
  tunable_init v = if init_rejects v then RaiseTypeError else Ok tt.
Proof.
  intros v. unfold tunable_init. rewrite topic_for_value_spec.
  destruct v as [s|[|e l]|[|e l]].
  - (* a scalar: checked, unless it is an empty str / bytes -- which passes the check *)
    destruct (truthy (VScalar s) || negb (is_sequence (VScalar s))) eqn:T.
    + now destruct s.
    + destruct s; try discriminate T; reflexivity.
  - (* []: the check is deferred *) reflexivity.
  - (* a non-empty list: checked, by its first element *)
    cbn. now destruct (spec_array (base_of e)).
  - (* (): the check is deferred *) reflexivity.
  - (* a non-empty tuple *)
    cbn. now destruct (spec_array (base_of e)).
Qed.

(* class creation: Some topic exactly as the documented table says, None
   (the class statement raises) otherwise -- for every default and hint *)
Theorem decl_topic_spec : forall d h, res_to_option (decl_topic d h) = spec_decl d h.
Proof.
  intros d h. unfold decl_topic, spec_decl. rewrite tunable_init_spec.
  destruct (init_rejects d); [reflexivity|]. unfold tunable_set_name.
  destruct h as [h|].
  - rewrite get_topic_type_spec. now destruct (spec_hint h).
  - rewrite topic_for_value_spec.
    destruct d as [s|[|e l]|[|e l]]; cbn; try reflexivity.
    + now destruct (spec_scalar (base_of s)).
    + now destruct (spec_array (base_of e)).
    + now destruct (spec_array (base_of e)).
Qed.

Lemma topic_default_scalar : forall s,
  topic_of_default (VScalar s) = spec_scalar (base_of s).
Proof.
  intros s. unfold topic_of_default. rewrite decl_topic_spec. unfold spec_decl. now destruct s.
Qed.

Lemma topic_default_list : forall e l,
  topic_of_default (VList (e :: l)) = spec_array (base_of e) /\
  topic_of_default (VTuple (e :: l)) = spec_array (base_of e).
Proof.
  intros e l. unfold topic_of_default. rewrite !decl_topic_spec. unfold spec_decl. simpl.
  now destruct (spec_array (base_of e)).
Qed.

Lemma topic_default_empty :
  topic_of_default (VList []) = None /\ topic_of_default (VTuple []) = None.
Proof. now split. Qed.

Lemma topic_hint_spec : forall h d, init_rejects d = false ->
  topic_of_hint h d = spec_hint h.
Proof.
  intros h d H. unfold topic_of_hint. rewrite decl_topic_spec. unfold spec_decl. now rewrite H.
Qed.

(* a tuple hint has a topic iff it is tuple[T, ...] or all its arguments are
   the same T, and T has an array topic *)
Lemma tuple_hint_supported : forall b rest t,
  spec_hint (TGen OTuple (ABase b :: rest)) = Some t <->
  (rest = [AEllipsis] \/ Forall (fun a => a = ABase b) rest) /\ spec_array b = Some t.
Proof.
  intros b rest t. rewrite spec_hint_tuple, <- tuple_args_ok_iff.
  destruct (tuple_args_ok (ABase b :: rest)); split.
  - now split.
  - now intros [_ H].
  - discriminate.
  - now intros [H _].
Qed.

Lemma tuple_hint_hetero : forall b c, b <> c ->
  spec_hint (TGen OTuple [ABase b; ABase c]) = None.
Proof.
  intros b c Hne. simpl. destruct (base_eqb b c) eqn:E; [|reflexivity].
  apply base_eqb_eq in E. contradiction.
Qed.

(* the size of the grid, and how many of its points have a topic: every
   default meets no hint and each hint once; a default that __init__ accepts
   is supported without hint when it has a topic of its own, and with exactly
   the hints that have one (counted once, not once per default) *)
Lemma grid_length : forall (hs : list tyexpr) (ds : list value),
  length (flat_map (fun d => (d, None) :: map (fun h => (d, Some h)) hs) ds) =
  (length ds * S (length hs))%nat.
Proof.
  intros hs ds. induction ds as [|d ds IH]; [reflexivity|].
  cbn [flat_map]. rewrite app_length, IH. cbn [length]. now rewrite map_length.
Qed.

Lemma grid_supported : forall hs ds,
  length (filter (fun dh : value * option tyexpr =>
                    match spec_decl (fst dh) (snd dh) with Some _ => true | None => false end)
                 (flat_map (fun d => (d, None) :: map (fun h => (d, Some h)) hs) ds)) =
  (length (filter (fun d => negb (init_rejects d) &&
                            match spec_default d with Some _ => true | None => false end) ds)
   + length (filter (fun d => negb (init_rejects d)) ds)
     * length (filter (fun h => match spec_hint h with Some _ => true | None => false end) hs))%nat.
Proof.
  intros hs ds. induction ds as [|d ds IH]; [reflexivity|].
  cbn [flat_map]. rewrite filter_app, app_length, IH. clear IH.
  cbn [filter map fst snd]. unfold spec_decl at 1.
  assert (H : forall l, length (filter (fun dh : value * option tyexpr =>
                match spec_decl (fst dh) (snd dh) with Some _ => true | None => false end)
              (map (fun h => (d, Some h)) l)) =
            if init_rejects d then O
            else length (filter (fun h => match spec_hint h with Some _ => true | None => false end) l)).
  { induction l as [|h l IHl]; cbn [map filter fst snd]; [now destruct (init_rejects d)|].
    unfold spec_decl at 1. destruct (init_rejects d); [exact IHl|].
    destruct (spec_hint h); cbn [length]; now rewrite IHl. }
  destruct (init_rejects d).
  - (* rejected by __init__: no point of the grid, with or without hint *)
    cbn [negb andb]. rewrite (H hs). reflexivity.
  - destruct (spec_default d); cbn [negb andb length]; rewrite (H hs); lia.
Qed.

(* the documented reading of an annotation: the H inside *)
Definition written_hint (a : annexpr) : tyexpr :=
  match a with
  | APlain (IType h) | APlain (ITunable h)
  | AClassVar (IType h) | AClassVar (ITunable h) => h
  end.

(* what __set_name__ resolves, for every class-body form: the subscript if
   there is one, else the H inside the (evaluated) annotation, else nothing *)
Theorem set_name_hint_char : forall o r,
  set_name_hint (mksrc o r) =
  match o with
  | Some h => Some h
  | None => option_map (fun x => written_hint (get_type_hints x)) r
  end.
Proof.
  intros [h|] [r|]; try reflexivity.
  unfold set_name_hint; simpl. now destruct (get_type_hints r) as [[h|h]|[h|h]].
Qed.

(* every accepted spelling of the hint H resolves to H *)
Theorem spelled_hint : forall sp h, set_name_hint (spell sp h) = Some h.
Proof. intros [|[] [] []] h; reflexivity. Qed.

Lemma unspelled_hint : forall sp, set_name_hint (spell_opt sp None) = None.
Proof. reflexivity. Qed.

Lemma spell_opt_hint : forall sp h, set_name_hint (spell_opt sp h) = h.
Proof. intros sp [h|]; [apply spelled_hint | reflexivity]. Qed.

Lemma all_spellings_complete : forall sp, In sp all_spellings.
Proof. intros [|[] [] []]; simpl; repeat (try (now left); right). Qed.

(* a postponed (PEP 563) or quoted annotation, and one with a quoted
   argument, give the class statement the same outcome as the evaluated one *)
Theorem postponed_annotation_same : forall d o a,
  decl_topic_src d (mksrc o (Some (RStr a))) = decl_topic_src d (mksrc o (Some (RObj a))) /\
  decl_topic_src d (mksrc o (Some (RFwd a))) = decl_topic_src d (mksrc o (Some (RObj a))).
Proof. intros d [h|] a; split; reflexivity. Qed.

(* the class statement, from the way it is written: the documented table,
   for every default, every hint (or none) and every spelling *)
Theorem decl_topic_src_spec : forall d sp h,
  res_to_option (decl_topic_src d (spell_opt sp h)) = spec_decl d h.
Proof.
  intros d sp h. unfold decl_topic_src. rewrite spell_opt_hint. apply decl_topic_spec.
Qed.

Lemma res_to_option_some : forall (A : Type) (r : res A) a, res_to_option r = Some a -> r = Ok a.
Proof. intros A [x| |] a H; simpl in H; try discriminate. now injection H as ->. Qed.

Lemma decl_topic_src_ok : forall d sp h t,
  spec_decl d (Some h) = Some t -> decl_topic_src d (spell sp h) = Ok t.
Proof.
  intros d sp h t H. apply res_to_option_some. rewrite <- H. exact (decl_topic_src_spec d sp (Some h)).
Qed.

(* type-hinted empty sequences: list[T], Sequence[T], tuple[T, ...] in any
   spelling give the array topic of T *)
Theorem hinted_empty_sequence : forall sp b t, spec_array b = Some t ->
  decl_topic_src (VList []) (spell sp (TGen OList [ABase b])) = Ok t /\
  decl_topic_src (VList []) (spell sp (TGen OSeq [ABase b])) = Ok t /\
  decl_topic_src (VTuple []) (spell sp (TGen OSeq [ABase b])) = Ok t /\
  decl_topic_src (VTuple []) (spell sp (TGen OTuple [ABase b; AEllipsis])) = Ok t.
Proof. intros sp b t H. repeat split; apply decl_topic_src_ok; exact H. Qed.

Theorem setup_binds_spelled : forall w i cls p c d sp h,
  NoDup (map d_attr cls) -> In d cls -> public d = true ->
  d_hint d = set_name_hint (spell_opt sp h) ->
  snd (step w (Setup i cls p c)) = EvSetup true ->
  exists b ty, inst_get (w_inst (fst (step w (Setup i cls p c)))) i = Some b /\
    spec_decl (d_default d) h = Some ty /\
    bind_get b (d_attr d) = Some (key_of p c (d_subtable d) (d_attr d), ty, entry_value ty (d_default d)).
Proof.
  intros w i cls p c d sp h Hnd Hin Hpub Hh Hs.
  destruct (setup_binds w i cls p c d Hnd Hin Hpub Hs) as (b & ty & Hb & Ht & Hg).
  exists b, ty. split; [exact Hb|]. split; [|exact Hg].
  rewrite Hh, spell_opt_hint in Ht. rewrite <- decl_topic_spec, Ht. reflexivity.
Qed.

(* @feedback: key and topic type derivation of collect_feedbacks (used by C11) *)

Lemma C11_key_explicit : forall k name, fb_key (Some k) name = k.
Proof. reflexivity. Qed.

Lemma C11_key_strips_get : forall r, fb_key None ("get_" ++ r) = r.
Proof.
  intros. unfold fb_key. rewrite starts_with_app.
  exact (drop_app "get_" r).
Qed.

Lemma C11_key_other : forall name, starts_with "get_" name = false -> fb_key None name = name.
Proof. intros name Hn. unfold fb_key. now rewrite Hn. Qed.

(* both directions: which (explicit, name) give which key *)
Lemma C11_key_char : forall name k,
  fb_key None name = k <->
  (name = "get_" ++ k) \/ ((forall r, name <> "get_" ++ r) /\ name = k).
Proof.
  intros name k. unfold fb_key. destruct (starts_with "get_" name) eqn:E.
  - pose proof (starts_with_split _ _ E) as S. split.
    + intros <-. left. exact S.
    + intros [->|[Hn _]].
      * exact (drop_app "get_" k).
      * exfalso. exact (Hn _ S).
  - split.
    + intros <-. right. split; [|reflexivity]. intros r ->.
      now rewrite starts_with_app in E.
    + intros [->|[_ ->]]; [|reflexivity]. now rewrite starts_with_app in E.
Qed.

Lemma C11_topic_key_component : forall N e name,
  fb_owner_key (OComponent N) e name = "/components/" ++ N ++ "/" ++ fb_key e name.
Proof. reflexivity. Qed.

Lemma C11_topic_key_robot : forall e name,
  fb_owner_key ORobot e name = "/robot/" ++ fb_key e name.
Proof. reflexivity. Qed.

Lemma C11_topic_type : forall ann,
  fb_publisher ann =
  match ann with
  | None => FbGeneric
  | Some a => match spec_hint a with
              | None => FbGeneric
              | Some NRaw => FbRaises
              | Some t => FbTyped t
              end
  end.
Proof. intros [a|]; [|reflexivity]. unfold fb_publisher. now rewrite get_topic_type_spec. Qed.

(* a typed publisher is created exactly for the documented annotations, and
   then with the documented type *)
Lemma C11_topic_type_typed : forall a t,
  fb_publisher (Some a) = FbTyped t <-> (spec_hint a = Some t /\ t <> NRaw).
Proof.
  (* the publisher for a topic type u: none for the raw one, else typed with u *)
  assert (P : forall u t, match u with NRaw => FbRaises | _ => FbTyped u end = FbTyped t <->
                          u = t /\ t <> NRaw).
  { intros u t. split.
    - intros H. assert (Hu : u <> NRaw) by (intros ->; discriminate H).
      destruct u; try contradiction; injection H as <-; now split.
    - intros [-> Hn]. now destruct t. }
  intros a t. rewrite C11_topic_type. destruct (spec_hint a) as [u|].
  - rewrite P. split.
    + intros [-> Hn]. now split.
    + intros [H Hn]. injection H as ->. now split.
  - split; [discriminate | intros [H _]; discriminate H].
Qed.

Lemma C11_topic_key_autonomous : forall N e name,
  fb_owner_key (OAutonomous N) e name = "/autonomous/" ++ N ++ "/" ++ fb_key e name.
Proof. reflexivity. Qed.

(* the key is stripped once only, and only of a leading "get_" *)
Example C11_key_examples :
  fb_key None "get_angle" = "angle" /\ fb_key None "get_get_x" = "get_x" /\
  fb_key None "getx" = "getx" /\ fb_key None "target_get_x" = "target_get_x" /\
  fb_key None "get_" = "" /\ fb_key None "_get_x" = "_get_x" /\
  fb_key (Some "k") "get_x" = "k" /\ fb_key (Some "") "get_x" = "".
Proof. repeat split. Qed.

(* the annotation table of collect_feedbacks, spelled out *)
Example C11_topic_type_table :
  fb_publisher None = FbGeneric /\
  fb_publisher (Some (TBase BBool)) = FbTyped NBoolean /\
  fb_publisher (Some (TBase BInt)) = FbTyped NInteger /\
  fb_publisher (Some (TBase BFloat)) = FbTyped NDouble /\
  fb_publisher (Some (TBase BStr)) = FbTyped NString /\
  fb_publisher (Some (TBase BBytes)) = FbRaises /\
  fb_publisher (Some (TBase BOther)) = FbGeneric /\
  (forall n, fb_publisher (Some (TBase (BStruct n))) = FbTyped (NStruct n)) /\
  (forall o b t, o <> OTuple -> spec_array b = Some t ->
     fb_publisher (Some (TGen o [ABase b])) = FbTyped t) /\
  (forall b t, spec_array b = Some t ->
     fb_publisher (Some (TGen OTuple [ABase b; AEllipsis])) = FbTyped t /\
     fb_publisher (Some (TGen OTuple [ABase b; ABase b])) = FbTyped t) /\
  (forall b c, b <> c -> fb_publisher (Some (TGen OTuple [ABase b; ABase c])) = FbGeneric).
Proof.
  (* an array topic is never the raw one, so an array annotation gives a typed publisher *)
  assert (A : forall a b t, spec_hint a = spec_array b -> spec_array b = Some t ->
                            fb_publisher (Some a) = FbTyped t).
  { intros a b t Ea Hs. apply C11_topic_type_typed. rewrite Ea. split; [exact Hs|].
    intros ->. now destruct b. }
  repeat split; try reflexivity.
  - intros o b t Ho. apply A. now destruct o.
  - now apply (A _ b).
  - apply (A _ b); [|assumption]. simpl. now rewrite base_eqb_refl.
  - intros b c Hne. rewrite C11_topic_type. now rewrite (tuple_hint_hetero b c Hne).
Qed.

(* bool(instance) plays no role: falsy owners (a class with __len__ or
   __bool__) read and write their tunables like any other *)

(* __get__ on an instance: the result does not depend on the truthiness the
   object has at that moment *)
Lemma tunable_get_instance : forall w i t a,
  tunable_get w (Some (i, t)) a = GResult (py_read w i a).
Proof. reflexivity. Qed.

Lemma tunable_get_class : forall w a, tunable_get w None a = GSelf.
Proof. reflexivity. Qed.

Lemma tunable_set_instance : forall w i t a v,
  tunable_set w (i, t) a v = step w (PyWrite i a v).
Proof. reflexivity. Qed.

Lemma xstep_op : forall x o,
  xstep x (XOp o) =
  (mkx (fst (step (x_w x) o)) (x_truth x), XEv (snd (step (x_w x) o))).
Proof.
  intros [w tr] o. destruct o as [i cls p c|i a v|i a|k ty v|k]; try reflexivity.
  - (* Setup *) cbn [xstep x_w x_truth]. now destruct (step w (Setup i cls p c)).
  - (* PyWrite *) cbn [xstep x_w x_truth]. unfold tunable_set, the_obj. cbn [fst x_truth].
    now destruct (step w (PyWrite i a v)).
Qed.

Lemma xstep_truth : forall x i t,
  xstep x (XSetTruth i t) = (mkx (x_w x) ((i, t) :: x_truth x), XDone).
Proof. reflexivity. Qed.

Lemma xrun_cons : forall x o r,
  xrun x (o :: r) =
  (fst (xrun (fst (xstep x o)) r), snd (xstep x o) :: snd (xrun (fst (xstep x o)) r)).
Proof.
  intros. simpl. destruct (xstep x o) as [x1 e]. simpl. destruct (xrun x1 r). reflexivity.
Qed.

Lemma xrun_app : forall h1 h2 x,
  xrun x (h1 ++ h2)%list =
  (fst (xrun (fst (xrun x h1)) h2), (snd (xrun x h1) ++ snd (xrun (fst (xrun x h1)) h2))%list).
Proof. exact (runs_app _ _ _ xstep xrun (fun _ => eq_refl) xrun_cons). Qed.

Lemma xrun_event_at : forall h1 o h2 x d,
  nth (length h1) (snd (xrun x (h1 ++ o :: h2)%list)) d = snd (xstep (fst (xrun x h1)) o).
Proof. exact (runs_event_at _ _ _ xstep xrun (fun _ => eq_refl) xrun_cons). Qed.

(* Every history with truthiness changes behaves, operation by operation, as
   the same history on ordinary always-true objects: same NetworkTables
   contents, same bindings, same events; no read hands back the descriptor. *)
Theorem xrun_erase : forall h x,
  x_w (fst (xrun x h)) = fst (run (x_w x) (erase h)) /\
  xevents (snd (xrun x h)) = map Some (snd (run (x_w x) (erase h))).
Proof.
  induction h as [|o h IH]; intros x; [split; reflexivity|].
  rewrite xrun_cons. destruct o as [o|i t].
  - rewrite xstep_op. cbn [fst snd erase xevents]. rewrite run_cons. cbn [fst snd map].
    destruct (IH (mkx (fst (step (x_w x) o)) (x_truth x))) as [H1 H2].
    cbn [x_w] in H1, H2. split; [exact H1 | now rewrite H2].
  - rewrite xstep_truth. cbn [fst snd erase xevents].
    exact (IH (mkx (x_w x) ((i, t) :: x_truth x))).
Qed.

(* in particular two runs of one history that differ only in how (and when)
   bool() of the owners comes out emit the same events *)
Theorem truthiness_unobservable : forall h1 h2 x1 x2,
  x_w x1 = x_w x2 -> erase h1 = erase h2 ->
  xevents (snd (xrun x1 h1)) = xevents (snd (xrun x2 h2)) /\
  x_w (fst (xrun x1 h1)) = x_w (fst (xrun x2 h2)).
Proof.
  intros h1 h2 x1 x2 Hw Hh.
  destruct (xrun_erase h1 x1) as [A1 A2], (xrun_erase h2 x2) as [B1 B2].
  rewrite A1, A2, B1, B2, Hw, Hh. split; reflexivity.
Qed.

Theorem read_never_self : forall h x, ~ In XSelf (snd (xrun x h)).
Proof.
  induction h as [|o h IH]; intros x; [intros []|].
  rewrite xrun_cons. cbn [snd]. intros [H|H]; [|exact (IH _ H)].
  destruct o as [o|i t]; [rewrite xstep_op in H | rewrite xstep_truth in H]; discriminate H.
Qed.

Theorem read_latest_any_truth : forall x h i t b a k ty d,
  no_setup (erase h) = true ->
  inst_get (w_inst (x_w x)) i = Some b -> bind_get b a = Some (k, ty, d) ->
  tunable_get (x_w (fst (xrun x h))) (Some (i, t)) a =
  GResult (match last_write (x_w x) (erase h) k with
           | Some v => EvVal v
           | None => py_read (x_w x) i a
           end).
Proof.
  intros x h i t b a k ty d Hh Hi Ha. rewrite tunable_get_instance.
  rewrite (proj1 (xrun_erase h x)). f_equal. eapply read_latest; eassumption.
Qed.

(* the event a read emits in the middle of such a history *)
Theorem read_latest_event_any_truth : forall x h1 h2 i b a k ty d,
  no_setup (erase h1) = true ->
  inst_get (w_inst (x_w x)) i = Some b -> bind_get b a = Some (k, ty, d) ->
  nth (length h1) (snd (xrun x (h1 ++ XOp (PyRead i a) :: h2)%list)) XDone =
  XEv (match last_write (x_w x) (erase h1) k with
       | Some v => EvVal v
       | None => py_read (x_w x) i a
       end).
Proof.
  intros. rewrite xrun_event_at, xstep_op. cbn [snd step].
  rewrite (proj1 (xrun_erase h1 x)). f_equal. eapply read_latest; eassumption.
Qed.

(* attribute assignment on a (possibly falsy) owner lands in its topic *)
Theorem write_reaches_topic_any_truth : forall w i t b a k ty d v,
  inst_get (w_inst w) i = Some b -> bind_get b a = Some (k, ty, d) ->
  nt_get (w_nt (fst (tunable_set w (i, t) a v))) k = Some (ty, entry_value ty v).
Proof.
  intros. rewrite tunable_set_instance. eapply bound_write_reaches_topic; eassumption.
Qed.

(* changing an owner's truthiness changes nothing else *)
Theorem set_truth_changes_nothing : forall x i t,
  x_w (fst (xstep x (XSetTruth i t))) = x_w x /\
  truth_get (x_truth (fst (xstep x (XSetTruth i t)))) i = t /\
  forall j, j <> i ->
    truth_get (x_truth (fst (xstep x (XSetTruth i t)))) j = truth_get (x_truth x) j.
Proof.
  intros. cbn [xstep fst x_w x_truth truth_get].
  split; [reflexivity|]. split; [now rewrite Nat.eqb_refl|].
  intros j Hj. destruct (Nat.eqb i j) eqn:E; [apply Nat.eqb_eq in E; congruence | reflexivity].
Qed.

Lemma body_get_some : forall b n m, body_get b n = Some m -> In m b /\ member_name m = n.
Proof.
  induction b as [|m0 b IH]; intros n m H; simpl in H; [discriminate|].
  destruct (String.eqb (member_name m0) n) eqn:E.
  - injection H as <-. split; [now left | now apply String.eqb_eq].
  - destruct (IH n m H). split; [now right | assumption].
Qed.

Lemma class_getattr_some : forall mro n m, class_getattr mro n = Some m ->
  (exists b, In b mro /\ In m b) /\ member_name m = n.
Proof.
  induction mro as [|b mro IH]; intros n m H; simpl in H; [discriminate|].
  destruct (body_get b n) as [m'|] eqn:E.
  - injection H as <-. apply body_get_some in E as [E1 E2].
    split; [|exact E2]. exists b. split; [now left | exact E1].
  - destruct (IH n m H) as [[b' [H1 H2]] Hn].
    split; [|exact Hn]. exists b'. split; [now right | assumption].
Qed.

(* attribute lookup on the class: the first class of the MRO that binds the name *)
Lemma class_getattr_first : forall pre C post n m,
  (forall b, In b pre -> body_get b n = None) -> body_get C n = Some m ->
  class_getattr (pre ++ C :: post) n = Some m.
Proof.
  induction pre as [|b pre IH]; intros C post n m Hpre HC; simpl.
  - now rewrite HC.
  - rewrite (Hpre b (or_introl eq_refl)). apply IH; [|assumption].
    intros b' Hb'. apply Hpre. now right.
Qed.

Lemma dedup_in : forall l x, In x (dedup l) <-> In x l.
Proof.
  induction l as [|y l IH]; intros x; simpl; [tauto|].
  destruct (existsb (String.eqb y) l) eqn:E.
  - rewrite IH. split; [now right|]. intros [<-|H]; [|assumption].
    apply existsb_exists in E as [z [Hz Ez]]. apply String.eqb_eq in Ez. now subst.
  - simpl. rewrite IH. tauto.
Qed.

Lemma dedup_nodup : forall l, NoDup (dedup l).
Proof.
  induction l as [|y l IH]; simpl; [constructor|].
  destruct (existsb (String.eqb y) l) eqn:E; [assumption|].
  constructor; [|assumption]. intro H. apply (proj1 (dedup_in l y)) in H.
  assert (existsb (String.eqb y) l = true); [|congruence].
  apply existsb_exists. exists y. split; [assumption | apply String.eqb_refl].
Qed.

Lemma insert_sorted_perm : forall x l, Permutation (insert_sorted x l) (x :: l).
Proof.
  induction l as [|y l IH]; simpl; [reflexivity|].
  destruct (String.leb x y); [reflexivity|]. rewrite IH. apply perm_swap.
Qed.

Lemma sort_names_perm : forall l, Permutation (sort_names l) l.
Proof.
  induction l as [|x l IH]; simpl; [constructor|]. now rewrite insert_sorted_perm, IH.
Qed.

(* dir(cls) lists every name bound anywhere in the hierarchy, once *)
Lemma dir_names_in : forall mro n,
  In n (dir_names mro) <-> exists b m, In b mro /\ In m b /\ member_name m = n.
Proof.
  intros mro n. unfold dir_names. rewrite sort_names_perm, dedup_in, in_flat_map. split.
  - intros [b [Hb Hn]]. apply in_map_iff in Hn as [m [Hm Hin]]. now exists b, m.
  - intros [b [m [Hb [Hm Hn]]]]. exists b. split; [assumption|]. apply in_map_iff. now exists m.
Qed.

Lemma dir_names_nodup : forall mro, NoDup (dir_names mro).
Proof. intros. unfold dir_names. rewrite sort_names_perm. apply dedup_nodup. Qed.

Theorem class_members_char : forall mro d,
  In d (class_members mro) <-> class_getattr mro (d_attr d) = Some (MTun d).
Proof.
  intros mro d. unfold class_members. rewrite in_flat_map. split.
  - intros [n [Hn Hd]]. destruct (class_getattr mro n) as [[d'|p]|] eqn:E; try contradiction.
    destruct Hd as [<-|[]].
    apply class_getattr_some in E as HE. destruct HE as [_ <-]. exact E.
  - intros H. exists (d_attr d). split; [|rewrite H; now left].
    apply dir_names_in. destruct (class_getattr_some _ _ _ H) as [[b [Hb Hm]] _]. now exists b, (MTun d).
Qed.

(* one tunable per attribute name, however often the name is redefined: the
   attribute names of the members are the names of dir(cls) that resolve to a
   tunable *)
Lemma class_members_attrs : forall mro,
  map d_attr (class_members mro) =
  filter (fun n => match class_getattr mro n with Some (MTun _) => true | _ => false end)
         (dir_names mro).
Proof.
  intros mro. unfold class_members.
  induction (dir_names mro) as [|n l IH]; [reflexivity|]. cbn [filter flat_map].
  rewrite map_app, IH.
  destruct (class_getattr mro n) as [[d|p]|] eqn:E; try reflexivity.
  apply class_getattr_some in E as [_ <-]. reflexivity.
Qed.

Theorem class_members_nodup : forall mro, NoDup (map d_attr (class_members mro)).
Proof. intros mro. rewrite class_members_attrs. apply NoDup_filter, dir_names_nodup. Qed.

Lemma class_members_in_body : forall mro d, In d (class_members mro) ->
  exists b, In b mro /\ In (MTun d) b.
Proof.
  intros mro d H. apply class_members_char in H. apply (class_getattr_some _ _ _ H).
Qed.

Theorem redefinition_shadows : forall pre C post d,
  (forall b, In b pre -> body_get b (d_attr d) = None) ->
  body_get C (d_attr d) = Some (MTun d) ->
  class_getattr (pre ++ C :: post) (d_attr d) = Some (MTun d) /\
  In d (class_members (pre ++ C :: post)) /\
  forall d', In d' (class_members (pre ++ C :: post)) -> d_attr d' = d_attr d -> d' = d.
Proof.
  intros pre C post d Hpre HC.
  pose proof (class_getattr_first pre C post _ _ Hpre HC) as Hg.
  split; [assumption|]. split; [now apply class_members_char|].
  intros d' Hd' E. apply class_members_char in Hd'. rewrite E, Hg in Hd'. now injection Hd'.
Qed.

Theorem plain_member_shadows : forall mro n,
  class_getattr mro n = Some (MPlain n) ->
  forall d, In d (class_members mro) -> d_attr d <> n.
Proof.
  intros mro n H d Hd E. apply class_members_char in Hd. rewrite E, H in Hd. discriminate.
Qed.

Lemma class_topics_all_ok : forall cls,
  (forall d, In d cls -> exists t, decl_topic (d_default d) (d_hint d) = Ok t) ->
  exists ds, class_topics cls = Some ds.
Proof.
  induction cls as [|d cls IH]; intros H; simpl; [now eexists|].
  destruct (H d (or_introl eq_refl)) as [t ->].
  destruct IH as [ds ->]; [intros d' Hd'; apply H; now right|]. now eexists.
Qed.

Lemma body_decls_in : forall b d, In d (body_decls b) <-> In (MTun d) b.
Proof.
  intros b d. unfold body_decls. rewrite in_flat_map. split.
  - intros [[d'|n] [Hm Hd]]; [destruct Hd as [<-|[]]; assumption | destruct Hd].
  - intros H. exists (MTun d). split; [assumption | now left].
Qed.

(* when every class statement of the hierarchy executes, setup succeeds *)
Theorem hierarchy_setup_succeeds : forall w i mro p c,
  hier_defined mro = true -> snd (step w (setup_class i mro p c)) = EvSetup true.
Proof.
  intros w i mro p c H. unfold setup_class.
  destruct (class_topics_all_ok (class_members mro)) as [ds Hds].
  - intros d Hd. destruct (class_members_in_body _ _ Hd) as [b [Hb Hm]].
    unfold hier_defined in H. rewrite forallb_forall in H. specialize (H b Hb).
    destruct (class_topics (body_decls b)) as [l|] eqn:E; [|discriminate].
    destruct (class_topics_in _ _ d E) as [t [_ Ht]]; [now apply body_decls_in|]. now exists t.
  - now rewrite (step_setup w i _ p c ds Hds).
Qed.

Theorem setup_hierarchy : forall w i mro p c d,
  (forall b m, In b mro -> In m b -> no_slash (member_name m) = true) ->
  class_getattr mro (d_attr d) = Some (MTun d) -> public d = true ->
  snd (step w (setup_class i mro p c)) = EvSetup true ->
  exists b ty, inst_get (w_inst (fst (step w (setup_class i mro p c)))) i = Some b /\
    decl_topic (d_default d) (d_hint d) = Ok ty /\
    bind_get b (d_attr d) = Some (key_of p c (d_subtable d) (d_attr d), ty, entry_value ty (d_default d)) /\
    nt_get (w_nt (fst (step w (setup_class i mro p c)))) (key_of p c (d_subtable d) (d_attr d)) =
    if d_wd d then Some (ty, entry_value ty (d_default d))
    else match nt_get (w_nt w) (key_of p c (d_subtable d) (d_attr d)) with
         | Some tv => Some tv
         | None => Some (ty, entry_value ty (d_default d))
         end.
Proof.
  intros w i mro p c d Hns Hg Hpub Hok. unfold setup_class in *.
  apply class_members_char in Hg.
  assert (Hns' : forall d', In d' (class_members mro) -> no_slash (d_attr d') = true).
  { intros d' Hd'. destruct (class_members_in_body _ _ Hd') as [b' [Hb' Hm]].
    exact (Hns b' (MTun d') Hb' Hm). }
  destruct (setup_binds w i _ p c d (class_members_nodup mro) Hg Hpub Hok) as [b [ty [Hb [Hty Hbind]]]].
  destruct (setup_write_default w i _ p c d (class_members_nodup mro) Hns' Hg Hpub Hok)
    as [ty' [Hty' Hwd]].
  rewrite Hty in Hty'. injection Hty' as <-. now exists b, ty.
Qed.

Theorem setup_hierarchy_untouched : forall w i mro p c k,
  (forall d, class_getattr mro (d_attr d) = Some (MTun d) -> public d = true ->
             key_of p c (d_subtable d) (d_attr d) <> k) ->
  nt_get (w_nt (fst (step w (setup_class i mro p c)))) k = nt_get (w_nt w) k.
Proof.
  intros w i mro p c k H. unfold setup_class. apply setup_untouched.
  intros d Hd. apply H. now apply class_members_char.
Qed.

(* what the attribute reads right after the setup of [setup_hierarchy]: the
   default of the definition the class resolves the name to, or the value the
   topic already had when that definition says writeDefault=False *)
Theorem setup_hierarchy_read : forall w i mro p c d,
  (forall b m, In b mro -> In m b -> no_slash (member_name m) = true) ->
  class_getattr mro (d_attr d) = Some (MTun d) -> public d = true ->
  snd (step w (setup_class i mro p c)) = EvSetup true ->
  exists ty, decl_topic (d_default d) (d_hint d) = Ok ty /\
  py_read (fst (step w (setup_class i mro p c))) i (d_attr d) =
  EvVal (if d_wd d then entry_value ty (d_default d)
         else match nt_get (w_nt w) (key_of p c (d_subtable d) (d_attr d)) with
              | Some (_, v) => v
              | None => entry_value ty (d_default d)
              end).
Proof.
  intros w i mro p c d Hns Hg Hpub Hok.
  destruct (setup_hierarchy w i mro p c d Hns Hg Hpub Hok) as [b [ty [Hb [Hty [Hbind Hnt]]]]].
  exists ty. split; [exact Hty|].
  rewrite (py_read_bound _ _ _ _ _ _ _ Hb Hbind). unfold nt_val. rewrite Hnt.
  destruct (d_wd d); [reflexivity|].
  now destruct (nt_get (w_nt w) (key_of p c (d_subtable d) (d_attr d))) as [[t v]|].
Qed.

(* What a typed entry stores: a value of the topic's type is stored and read
   back as it is, whatever Python type the default has *)

Lemma to_double_float : forall s, base_eqb (base_of s) BFloat = true -> to_double s = s.
Proof. destruct s; simpl; intros H; try discriminate H; reflexivity. Qed.
Lemma to_integer_int : forall s, base_eqb (base_of s) BInt = true -> to_integer s = s.
Proof. destruct s; simpl; intros H; try discriminate H; reflexivity. Qed.

(* only the integer and double topics convert what they are handed *)
Lemma entry_value_converts : forall ty,
  ty = NInteger \/ ty = NDouble \/ ty = NIntegerArr \/ ty = NDoubleArr \/
  forall v, entry_value ty v = canon v.
Proof. intros []; auto; do 4 right; intros [s|l|l]; reflexivity. Qed.

(* no conversion happens to a value of the topic's type *)
Theorem entry_value_fits : forall ty v, fits ty v = true -> entry_value ty v = canon v.
Proof.
  assert (L : forall f b l, (forall s, base_eqb (base_of s) b = true -> f s = s) ->
                forallb (fun s => base_eqb (base_of s) b) l = true -> map f l = l).
  { intros f b l Hf Hl. rewrite forallb_forall in Hl. rewrite <- (map_id l) at 2.
    apply map_ext_in. intros s Hs. apply Hf, Hl, Hs. }
  intros ty v H.
  (* on the scalars that fit, the conversion of an integer or double topic is
     the identity; [L] carries that to the elements of an array *)
  destruct (entry_value_converts ty) as [->|[->|[->|[->|E]]]].
  - (* int: a scalar *)
    destruct v as [s|l|l]; [|discriminate H|discriminate H]. cbn [fits ntype_kind] in H.
    unfold entry_value. cbn [canon]. now rewrite to_integer_int.
  - (* double: a scalar *)
    destruct v as [s|l|l]; [|discriminate H|discriminate H]. cbn [fits ntype_kind] in H.
    unfold entry_value. cbn [canon]. now rewrite to_double_float.
  - (* int[] *)
    destruct v as [s|l|l]; [discriminate H| |]; cbn [fits ntype_kind] in H; unfold entry_value; cbn [canon].
    + (* a list *) now rewrite (L _ _ _ to_integer_int H).
    + (* a tuple *) now rewrite (L _ _ _ to_integer_int H).
  - (* double[] *)
    destruct v as [s|l|l]; [discriminate H| |]; cbn [fits ntype_kind] in H; unfold entry_value; cbn [canon].
    + (* a list *) now rewrite (L _ _ _ to_double_float H).
    + (* a tuple *) now rewrite (L _ _ _ to_double_float H).
  - (* every other topic stores what it is handed *) apply E.
Qed.

(* the numeric tower: an int handed to a double entry is that number as a
   float (floats are n/64: z = 64z/64), a bool handed to an int entry 0 / 1 *)
Lemma entry_value_int_on_double : forall z,
  entry_value NDouble (VScalar (SInt z)) = VScalar (SFloat (64 * z)) /\
  forall l, entry_value NDoubleArr (VList (map SInt l)) = VList (map (fun z => SFloat (64 * z)) l) /\
            entry_value NDoubleArr (VTuple (map SInt l)) = VList (map (fun z => SFloat (64 * z)) l).
Proof.
  intros z. split; [reflexivity|]. intros l. unfold entry_value. simpl. rewrite map_map. now split.
Qed.

(* the result of a conversion is always a value of the topic's type when the
   argument is one of the numeric tower below it *)
Lemma entry_value_double_fits : forall s,
  (exists z, s = SInt z) \/ (exists b, s = SBool b) \/ (exists n, s = SFloat n) ->
  fits NDouble (entry_value NDouble (VScalar s)) = true.
Proof. intros s [[z ->]|[[b ->]|[n ->]]]; reflexivity. Qed.

Theorem write_typed_value_reads_back : forall w i b a k ty d v,
  inst_get (w_inst w) i = Some b -> bind_get b a = Some (k, ty, d) -> fits ty v = true ->
  py_read (fst (step w (PyWrite i a v))) i a = EvVal (canon v) /\
  nt_get (w_nt (fst (step w (PyWrite i a v)))) k = Some (ty, canon v).
Proof.
  intros w i b a k ty d v Hi Ha Hf. rewrite <- (entry_value_fits ty v Hf). split.
  - eapply py_write_read_back; eassumption.
  - eapply bound_write_reaches_topic; eassumption.
Qed.

Lemma op_writes_py_typed : forall w j a v k b ty d,
  inst_get (w_inst w) j = Some b -> bind_get b a = Some (k, ty, d) -> fits ty v = true ->
  op_writes w (PyWrite j a v) k = Some (canon v).
Proof.
  intros w j a v k b ty d Hj Ha Hf. simpl. rewrite Hj, Ha, String.eqb_refl.
  now rewrite (entry_value_fits ty v Hf).
Qed.

(* the same through setup: the topic type [ty] comes from the declaration
   (hint first, else the default); the Python type of the DEFAULT plays no role
   in what a later assignment stores *)
Theorem setup_then_write_reads_back : forall w i cls p c d v,
  NoDup (map d_attr cls) -> In d cls -> public d = true ->
  snd (step w (Setup i cls p c)) = EvSetup true ->
  exists ty, decl_topic (d_default d) (d_hint d) = Ok ty /\
    (fits ty v = true ->
     py_read (fst (step (fst (step w (Setup i cls p c))) (PyWrite i (d_attr d) v))) i (d_attr d)
       = EvVal (canon v) /\
     nt_get (w_nt (fst (step (fst (step w (Setup i cls p c))) (PyWrite i (d_attr d) v))))
            (key_of p c (d_subtable d) (d_attr d)) = Some (ty, canon v)).
Proof.
  intros w i cls p c d v Hnd Hin Hpub Hok.
  destruct (setup_binds w i cls p c d Hnd Hin Hpub Hok) as [b [ty [Hb [Hty Hbind]]]].
  exists ty. split; [exact Hty|]. intros Hf.
  exact (write_typed_value_reads_back _ i b _ _ ty _ v Hb Hbind Hf).
Qed.

Lemma opt_all_some : forall (A : Type) (l : list (option A)) r,
  opt_all l = Some r -> l = map Some r.
Proof.
  induction l as [|[x|] l IH]; intros r H; simpl in H; try discriminate.
  - now injection H as <-.
  - destruct (opt_all l) as [r'|]; [|discriminate]. injection H as <-.
    simpl. now rewrite (IH r' eq_refl).
Qed.

(* a translation that succeeds relates the lists element by element *)
Lemma opt_all_map : forall (A B : Type) (f : A -> option B) l r,
  opt_all (map f l) = Some r -> Forall2 (fun x y => f x = Some y) l r.
Proof.
  induction l as [|x l IH]; intros r H; simpl in H.
  - injection H as <-. constructor.
  - destruct (f x) as [y|] eqn:E; [|discriminate].
    destruct (opt_all (map f l)) as [r'|]; [|discriminate].
    injection H as <-. constructor; [exact E | now apply IH].
Qed.

Lemma Forall2_transfer : forall (A B : Type) (R : A -> B -> Prop) (P : A -> Prop) (Q : B -> Prop),
  (forall x y, R x y -> P x -> Q y) ->
  forall l1 l2, Forall2 R l1 l2 -> (forall x, In x l1 -> P x) -> forall y, In y l2 -> Q y.
Proof.
  intros A B R P Q H l1 l2 F. induction F as [|x y l1 l2 Hxy _ IH]; intros HP y' Hy; [destruct Hy|].
  destruct Hy as [<-|Hy].
  - apply (H x); [exact Hxy | apply HP; now left].
  - apply IH; [|exact Hy]. intros x' Hx'. apply HP. now right.
Qed.

Lemma obind_member_name : forall pr ob m, obind_member pr ob = Some m -> member_name m = obind_name ob.
Proof.
  intros pr [n oid ann|n] m H; simpl in H.
  - unfold obj_decl in H. destruct (nth_error (p_objs pr) oid); simpl in H; [|discriminate].
    now injection H as <-.
  - now injection H as <-.
Qed.

(* attribute lookup on the class commutes with the translation of the class
   bodies: getattr(cls, n) finds the object the first binding class bound *)
Lemma body_get_commutes : forall pr b cb n, prog_body pr b = Some cb ->
  match obody_get b n with
  | Some ob => exists m, obind_member pr ob = Some m /\ body_get cb n = Some m
  | None => body_get cb n = None
  end.
Proof.
  intros pr b cb n H. apply opt_all_map in H.
  induction H as [|ob m b cb Hm _ IH]; simpl; [reflexivity|].
  rewrite (obind_member_name pr ob m Hm).
  destruct (String.eqb (obind_name ob) n); [now exists m | exact IH].
Qed.

Lemma getattr_commutes : forall pr om mro n, opt_all (map (prog_body pr) om) = Some mro ->
  class_getattr mro n = match omro_getattr om n with Some ob => obind_member pr ob | None => None end.
Proof.
  intros pr om mro n H. apply opt_all_map in H.
  induction H as [|b cb om mro Hb _ IH]; simpl; [reflexivity|].
  pose proof (body_get_commutes pr b cb n Hb) as Hn.
  destruct (obody_get b n) as [ob|].
  - destruct Hn as [m [-> ->]]. reflexivity.
  - now rewrite Hn.
Qed.

Lemma obody_get_name : forall b n ob, obody_get b n = Some ob -> obind_name ob = n.
Proof.
  induction b as [|ob0 b IH]; intros n ob H; simpl in H; [discriminate|].
  destruct (String.eqb (obind_name ob0) n) eqn:E.
  - injection H as <-. now apply String.eqb_eq.
  - now apply IH.
Qed.
Lemma omro_getattr_name : forall om n ob, omro_getattr om n = Some ob -> obind_name ob = n.
Proof.
  induction om as [|b om IH]; intros n ob H; simpl in H; [discriminate|].
  destruct (obody_get b n) as [ob'|] eqn:E.
  - injection H as <-. now apply (obody_get_name b).
  - now apply IH.
Qed.

(* the translated bodies bind the names the class statements bind *)
Lemma prog_mro_names : forall pr om mro, opt_all (map (prog_body pr) om) = Some mro ->
  (forall b ob, In b om -> In ob b -> no_slash (obind_name ob) = true) ->
  forall cb m, In cb mro -> In m cb -> no_slash (member_name m) = true.
Proof.
  intros pr om mro H Hns cb m Hcb. revert m. apply opt_all_map in H.
  refine (Forall2_transfer _ _ _ (fun b => forall ob, In ob b -> no_slash (obind_name ob) = true)
            (fun cb => forall m, In m cb -> no_slash (member_name m) = true)
            _ _ _ H (fun b Hb ob => Hns b ob Hb) cb Hcb).
  intros b cb' Hb Hb'. apply opt_all_map in Hb.
  refine (Forall2_transfer _ _ _ _ (fun m => no_slash (member_name m) = true) _ _ _ Hb Hb').
  intros ob m Hm Hob. now rewrite (obind_member_name pr ob m Hm).
Qed.

Theorem shared_object_setup : forall w i pr ixs om cls p c n oid ann o,
  prog_stmts pr ixs = Some om -> prog_class pr ixs = Some cls ->
  (forall b ob, In b om -> In ob b -> no_slash (obind_name ob) = true) ->
  omro_getattr om n = Some (OTun n oid ann) ->
  nth_error (p_objs pr) oid = Some o ->
  starts_with "_" n = false ->
  snd (step w (Setup i cls p c)) = EvSetup true ->
  exists b ty, inst_get (w_inst (fst (step w (Setup i cls p c)))) i = Some b /\
    decl_topic (t_default o) (obj_hint pr oid) = Ok ty /\
    bind_get b n = Some (key_of p c (t_subtable o) n, ty, entry_value ty (t_default o)) /\
    nt_get (w_nt (fst (step w (Setup i cls p c)))) (key_of p c (t_subtable o) n) =
    if t_wd o then Some (ty, entry_value ty (t_default o))
    else match nt_get (w_nt w) (key_of p c (t_subtable o) n) with
         | Some tv => Some tv
         | None => Some (ty, entry_value ty (t_default o))
         end.
Proof.
  intros w i pr ixs om cls p c n oid ann o Hom Hcls Hns Hget Ho Hpub Hok.
  unfold prog_class in Hcls. rewrite Hom in Hcls. unfold prog_mro in Hcls. rewrite Hom in Hcls.
  destruct (opt_all (map (prog_body pr) om)) as [mro|] eqn:Emro; [|discriminate].
  destruct (nodupb (resolved_ids om)); [|discriminate]. injection Hcls as <-.
  set (d := mkdecl n (t_default o) (obj_hint pr oid) (t_subtable o) (t_wd o)).
  assert (Hg : class_getattr mro (d_attr d) = Some (MTun d)).
  { change (class_getattr mro n = Some (MTun d)).
    rewrite (getattr_commutes pr om mro n Emro), Hget. simpl. unfold obj_decl. now rewrite Ho. }
  assert (Hp : public d = true) by (unfold public; simpl; now rewrite Hpub).
  exact (setup_hierarchy w i mro p c d (prog_mro_names pr om mro Emro Hns) Hg Hp Hok).
Qed.

(* what the slot holds is the hint of some call on the object; it holds
   nothing only when there was no call *)
Lemma last_call_spec : forall l oid,
  match last_call l oid with
  | Some y => In (oid, y) l
  | None => forall x, ~ In (oid, x) l
  end.
Proof.
  induction l as [|[j h] l IH]; intros oid; simpl; [intros x []|].
  specialize (IH oid). destruct (last_call l oid) as [y|]; [now right|].
  destruct (Nat.eqb_spec j oid) as [->|Hne]; [now left|].
  intros x [E|Hin]; [injection E as E _; exact (Hne E) | exact (IH x Hin)].
Qed.

(* every class body that binds the object makes one __set_name__ call *)
Lemma bound_object_is_named : forall pr stmt n oid ann o,
  In stmt (p_stmts pr) -> In (OTun n oid ann) stmt -> nth_error (p_objs pr) oid = Some o ->
  In (oid, set_name_hint (mksrc (t_orig o) ann)) (set_name_calls pr).
Proof.
  intros pr stmt n oid ann o Hs Hb Ho. unfold set_name_calls.
  apply in_flat_map. exists stmt. split; [assumption|].
  apply in_flat_map. exists (OTun n oid ann). split; [assumption|]. simpl. rewrite Ho. now left.
Qed.

Lemma set_name_call_origin : forall pr oid x, In (oid, x) (set_name_calls pr) ->
  exists stmt n ann o, In stmt (p_stmts pr) /\ In (OTun n oid ann) stmt /\
    nth_error (p_objs pr) oid = Some o /\ x = set_name_hint (mksrc (t_orig o) ann).
Proof.
  intros pr oid x H. unfold set_name_calls in H.
  apply in_flat_map in H as [stmt [Hs H]]. apply in_flat_map in H as [ob [Hob H]].
  destruct ob as [n oid' ann|n]; simpl in H; [|destruct H].
  destruct (nth_error (p_objs pr) oid') as [o|] eqn:Eo; [|destruct H].
  destruct H as [H|[]]. injection H as -> <-. now exists stmt, n, ann, o.
Qed.

(* when all the class bodies that bind the object resolve the same hint [hh]
   for it -- in particular: the object carries a subscript, or nobody
   annotates it, or everybody writes the same H (in any spelling) -- that is
   the hint behind its topic type *)
Theorem shared_object_hint : forall pr oid o hh,
  nth_error (p_objs pr) oid = Some o ->
  (exists stmt n ann, In stmt (p_stmts pr) /\ In (OTun n oid ann) stmt) ->
  (forall stmt n ann, In stmt (p_stmts pr) -> In (OTun n oid ann) stmt ->
                      set_name_hint (mksrc (t_orig o) ann) = hh) ->
  obj_hint pr oid = hh.
Proof.
  intros pr oid o hh Ho [stmt [n [ann [Hs Hb]]]] Hall. unfold obj_hint.
  pose proof (last_call_spec (set_name_calls pr) oid) as E.
  destruct (last_call (set_name_calls pr) oid) as [y|].
  - destruct (set_name_call_origin pr oid y E) as [s' [n' [a' [o' [H1 [H2 [H3 H4]]]]]]].
    rewrite Ho in H3. injection H3 as <-. rewrite H4. now apply (Hall s' n' a').
  - exfalso. exact (E _ (bound_object_is_named pr stmt n oid ann o Hs Hb Ho)).
Qed.

Theorem shared_object_hint_subscript : forall pr oid o h,
  nth_error (p_objs pr) oid = Some o -> t_orig o = Some h ->
  (exists stmt n ann, In stmt (p_stmts pr) /\ In (OTun n oid ann) stmt) ->
  obj_hint pr oid = Some h.
Proof.
  intros pr oid o h Ho Hh Hb. apply (shared_object_hint pr oid o (Some h) Ho Hb).
  intros stmt n ann _ _. unfold set_name_hint. simpl. now rewrite Hh.
Qed.

(* the documented table for a shared object: every class body that binds it
   writes the hint [h] (or none) in some accepted spelling *)
Theorem shared_object_topic_type : forall pr oid o h,
  nth_error (p_objs pr) oid = Some o ->
  (exists stmt n ann, In stmt (p_stmts pr) /\ In (OTun n oid ann) stmt) ->
  (forall stmt n ann, In stmt (p_stmts pr) -> In (OTun n oid ann) stmt ->
                      exists sp, mksrc (t_orig o) ann = spell_opt sp h) ->
  res_to_option (decl_topic (t_default o) (obj_hint pr oid)) = spec_decl (t_default o) h.
Proof.
  intros pr oid o h Ho Hb Hall. rewrite (shared_object_hint pr oid o h Ho Hb).
  - apply decl_topic_spec.
  - intros stmt n ann Hs Hin. destruct (Hall stmt n ann Hs Hin) as [sp ->]. apply spell_opt_hint.
Qed.

(* Timestamps and the clock play no role for what a tunable reads; a setup
   binds the tunables the class has at that moment *)

(* no topic carries a timestamp from the future *)
Definition stamps_le (st : stamps) (now : Z) : Prop := forall k, (stamp_get st k <= now)%Z.

Lemma accepts_le : forall st t, (st <= t)%Z -> accepts st t = true.
Proof. intros. unfold accepts. apply orb_true_iff. right. now apply Z.leb_le. Qed.

Lemma nt_write_at_accepted : forall m s k ty v t m' s',
  nt_write_at m s k ty v t = (m', s', true) -> m' = nt_set m k ty v.
Proof.
  intros m s k ty v t m' s' H. unfold nt_write_at in H.
  destruct (accepts (stamp_get s k) t); [|discriminate]. now injection H as <- _.
Qed.

Lemma nt_write_at_dropped : forall m s k ty v t m' s',
  nt_write_at m s k ty v t = (m', s', false) -> m' = m /\ s' = s.
Proof.
  intros m s k ty v t m' s' H. unfold nt_write_at in H.
  destruct (accepts (stamp_get s k) t); [discriminate|]. injection H as <- <-. now split.
Qed.

Lemma nt_write_at_timely : forall m s k ty v t now m' s' ok,
  nt_write_at m s k ty v t = (m', s', ok) ->
  stamps_le s now -> (t <= now)%Z -> accepts (stamp_get s k) t = true ->
  ok = true /\ stamps_le s' now.
Proof.
  intros m s k ty v t now m' s' ok H Hs Ht Ha. unfold nt_write_at in H. rewrite Ha in H.
  injection H as _ <- <-. split; [reflexivity|].
  destruct (is_dup m k ty v); [exact Hs|].
  intros k'. simpl. destruct (String.eqb k k'); [exact Ht | apply Hs].
Qed.

(* the loop of setup_tunables with timestamps: when ntcore accepts every write
   it is the loop without them, and it accepts every write when no topic is
   ahead of the clock *)
Lemma setup_loop_t_spec : forall pfx ds nt st now b nt' st' b' ok,
  setup_loop_t pfx ds nt st now b = (nt', st', b', ok) ->
  (ok = true -> setup_loop pfx ds nt b = (nt', b')) /\
  (stamps_le st now -> ok = true /\ stamps_le st' now).
Proof.
  induction ds as [|[d ty] ds IH]; intros nt st now b nt' st' b' ok H;
    cbn [setup_loop_t setup_loop] in *.
  - injection H as <- <- <- <-. now repeat split.
  - destruct (starts_with "_" (d_attr d)); [exact (IH _ _ _ _ _ _ _ _ H)|].
    destruct (d_wd d).
    + destruct (nt_write_at nt st _ ty _ now) as [[nt1 st1] ok1] eqn:E1.
      destruct (setup_loop_t pfx ds nt1 st1 now _) as [[[nt2 st2] b2] ok2] eqn:E2.
      injection H as <- <- <- <-. apply IH in E2 as [A2 T2]. split.
      * intros Hok. apply andb_true_iff in Hok as [-> Hok].
        apply nt_write_at_accepted in E1 as ->. exact (A2 Hok).
      * intros Hs.
        apply (nt_write_at_timely _ _ _ _ _ _ now) in E1 as [-> Hs1];
          [exact (T2 Hs1) | exact Hs | apply Z.le_refl | apply accepts_le, Hs].
    + destruct (setup_loop_t pfx ds _ st now _) as [[[nt2 st2] b2] ok2] eqn:E2.
      injection H as <- <- <- <-. exact (IH _ _ _ _ _ _ _ _ E2).
Qed.

Lemma grun_cons : forall g o r,
  grun g (o :: r) =
  (fst (grun (fst (fst (gstep g o))) r),
   (snd (fst (gstep g o)), snd (gstep g o)) :: snd (grun (fst (fst (gstep g o))) r)).
Proof.
  intros. simpl. destruct (gstep g o) as [[g1 e] ok]. simpl. destruct (grun g1 r). reflexivity.
Qed.

(* the classes after one operation, and what the operation and its event
   leave of themselves when the environment is forgotten *)
Definition cl_after (cl : list (list classbody)) (o : gop) : list (list classbody) :=
  match o with
  | GClassAssign c m => match nth_error cl c with Some _ => classes_assign cl c m | None => cl end
  | _ => cl
  end.
Definition gerase1 (cl : list (list classbody)) (o : gop) : list xop :=
  match o with
  | GX xo => [xo]
  | GNtWriteAt k ty v _ => [XOp (NtWrite k ty v)]
  | GSetupOf i c p n =>
      match nth_error cl c with Some mro => [XOp (setup_class i mro p n)] | None => [] end
  | _ => []
  end.
Definition gevent1 (e : gevent) : list xevent :=
  match e with GEv e' => [e'] | _ => [] end.

Lemma gerase_cons : forall cl o r,
  gerase cl (o :: r) = (gerase1 cl o ++ gerase (cl_after cl o) r)%list.
Proof.
  intros cl [xo|d|k ty v s|k|c m|i c p n] r; simpl; try reflexivity.
  destruct (nth_error cl c); reflexivity.
Qed.

Lemma gevents_cons : forall e ok r, gevents ((e, ok) :: r) = (gevent1 e ++ gevents r)%list.
Proof. intros [e'|t| |] ok r; reflexivity. Qed.

(* erasing a history in two parts: the second under the classes the first leaves *)
Lemma gerase_app : forall h1 h2 cl,
  gerase cl (h1 ++ h2) = (gerase cl h1 ++ gerase (fold_left cl_after h1 cl) h2)%list.
Proof.
  induction h1 as [|o h1 IH]; intros h2 cl; [reflexivity|].
  rewrite <- app_comm_cons, !gerase_cons, IH, app_assoc. reflexivity.
Qed.

Lemma xrun_one : forall x o, xrun x [o] = (fst (xstep x o), [snd (xstep x o)]).
Proof. intros. simpl. now destruct (xstep x o). Qed.

(* What an operation [r = gstep g o] has to do with the environment-free model:
   when ntcore accepted its writes it is the run of what is left of the
   operation ([xs], classes afterwards [cl']), with the event it leaves; and
   under a clock that no topic is ahead of, for a [timely] operation, the
   writes are accepted and no topic gets ahead of the clock. *)
Definition gstep_ok (g : gworld) (xs : list xop) (cl' : list (list classbody)) (timely : Prop)
           (r : gworld * gevent * bool) : Prop :=
  (snd r = true ->
   xrun (g_x g) xs = (g_x (fst (fst r)), gevent1 (snd (fst r))) /\
   g_classes (fst (fst r)) = cl') /\
  (stamps_le (g_stamps g) (g_now g) -> timely ->
   snd r = true /\ stamps_le (g_stamps (fst (fst r))) (g_now (fst (fst r)))).

(* the three kinds of operation: a setup, a write to one topic, and those
   that write nothing *)
Lemma gsetup_ok : forall g i cls p c timely,
  gstep_ok g [XOp (Setup i cls p c)] (g_classes g) timely (gsetup g i cls p c).
Proof.
  intros [[w tr] now st cl] i cls p c timely. unfold gstep_ok, gsetup.
  rewrite xrun_one, xstep_op. cbn [g_x x_w x_truth g_now g_stamps g_classes step].
  destruct (class_topics cls) as [ds|]; [|now repeat split].
  destruct (setup_loop_t (key_prefix p c) ds (w_nt w) st now []) as [[[nt' st'] b] ok] eqn:E.
  apply setup_loop_t_spec in E as [A T]. cbn. split.
  - intros Hok. now rewrite (A Hok).
  - intros Hs _. exact (T Hs).
Qed.

Lemma gwrite_ok : forall g k ty v t o (timely : Prop),
  step (x_w (g_x g)) o =
    (mkworld (nt_set (w_nt (x_w (g_x g))) k ty v) (w_inst (x_w (g_x g))), EvWrote) ->
  (stamps_le (g_stamps g) (g_now g) -> timely ->
   (t <= g_now g)%Z /\ accepts (stamp_get (g_stamps g) k) t = true) ->
  gstep_ok g [XOp o] (g_classes g) timely
    (let '(g', ok) := gwrite g k ty v t in (g', GEv (XEv EvWrote), ok)).
Proof.
  intros g k ty v t o timely Ho Ht. unfold gstep_ok, gwrite. rewrite xrun_one, xstep_op, Ho.
  destruct (nt_write_at (w_nt (x_w (g_x g))) (g_stamps g) k ty v t) as [[nt' st'] ok] eqn:E.
  cbn. split.
  - intros ->. apply nt_write_at_accepted in E as ->. now split.
  - intros Hs Hq. destruct (Ht Hs Hq) as [Ht' Ha].
    exact (nt_write_at_timely _ _ _ _ _ _ _ _ _ _ E Hs Ht' Ha).
Qed.

Lemma gquiet_ok : forall x now st cl x' e now' cl' xs (timely : Prop),
  (timely -> (now <= now')%Z) -> xrun x xs = (x', gevent1 e) ->
  gstep_ok (mkg x now st cl) xs cl' timely (mkg x' now' st cl', e, true).
Proof.
  intros x now st cl x' e now' cl' xs timely Hn Hx. unfold gstep_ok. cbn. split; [now split|].
  intros Hs Hq. split; [reflexivity|]. intros k. specialize (Hs k). specialize (Hn Hq). lia.
Qed.

Lemma sel_time_timely : forall now st s, (st <= now)%Z -> sel_timely s = true ->
  (sel_time now st s <= now)%Z /\ accepts st (sel_time now st s) = true.
Proof.
  intros now st [| | |t] Hst Hs; try discriminate; cbn [sel_time].
  - split; [lia | now apply accepts_le].
  - destruct (Z.eqb st 0) eqn:E.
    + split; [lia | now apply accepts_le].
    + split; [exact Hst | apply accepts_le; lia].
Qed.

Lemma gstep_ok_all : forall g o,
  gstep_ok g (gerase1 (g_classes g) o) (cl_after (g_classes g) o) (gop_timely o = true) (gstep g o).
Proof.
  intros [[w tr] now st cl] o.
  assert (Hnow : forall k, stamps_le st now -> gop_timely o = true ->
            (now <= now)%Z /\ accepts (stamp_get st k) now = true).
  { intros k Hs _. split; [apply Z.le_refl | apply accepts_le, Hs]. }
  destruct o as [[[i cls p c|i a v|i a|k ty v|k]|i t]|d|k ty v s|k|c m|i c p n];
    cbn [gstep gerase1 cl_after].
  - (* Setup *) apply gsetup_ok.
  - (* PyWrite: a write at the clock's time if the attribute is bound, else quiet *)
    cbn [g_x x_w]. destruct (inst_get (w_inst w) i) as [b|] eqn:Hi;
      [destruct (bind_get b a) as [[[key ty] dflt]|] eqn:Ha|].
    + apply gwrite_ok; [exact (step_write_bound _ _ _ _ _ _ _ v Hi Ha) | apply Hnow].
    + apply gquiet_ok; [reflexivity|]. rewrite xrun_one, xstep_op. cbn. now rewrite Hi, Ha.
    + apply gquiet_ok; [reflexivity|]. rewrite xrun_one, xstep_op. cbn. now rewrite Hi.
  - (* PyRead *) apply gquiet_ok; [reflexivity | apply xrun_one].
  - (* NtWrite: at the clock's time *) apply gwrite_ok; [reflexivity | apply Hnow].
  - (* NtRead *) apply gquiet_ok; [reflexivity | apply xrun_one].
  - (* XSetTruth *) apply gquiet_ok; [reflexivity | apply xrun_one].
  - (* GTick d: timely means 0 <= d *) apply gquiet_ok; [|reflexivity].
    cbn [gop_timely g_now]. intros Hd. apply Z.leb_le in Hd. lia.
  - (* GNtWriteAt: at the time the client's selector gives *)
    apply (gwrite_ok _ k ty (canon v) _ (NtWrite k ty v)); [reflexivity|].
    intros Hs Ho. exact (sel_time_timely _ _ s (Hs k) Ho).
  - (* GNtStamp *) apply gquiet_ok; reflexivity.
  - (* GClassAssign *) cbn [g_classes]. destruct (nth_error cl c); apply gquiet_ok; reflexivity.
  - (* GSetupOf: a setup with the class as it is, or no such class *)
    cbn [g_classes]. destruct (nth_error cl c) as [mro|]; [apply gsetup_ok | apply gquiet_ok; reflexivity].
Qed.

(* Every history in the environment (clock, timestamps supplied by clients,
   classes that change) in which ntcore dropped no write as stale behaves,
   operation by operation, as the same history with the environment forgotten *)
Theorem grun_erase : forall h g,
  all_accepted (snd (grun g h)) = true ->
  g_x (fst (grun g h)) = fst (xrun (g_x g) (gerase (g_classes g) h)) /\
  gevents (snd (grun g h)) = snd (xrun (g_x g) (gerase (g_classes g) h)).
Proof.
  induction h as [|o h IH]; intros g Hacc; [split; reflexivity|].
  rewrite grun_cons in *. cbn [fst snd all_accepted forallb] in *.
  apply andb_true_iff in Hacc as [Hok Hacc].
  destruct (proj1 (gstep_ok_all g o) Hok) as [Hx Hc].
  rewrite gerase_cons, xrun_app, Hx. cbn [fst snd].
  destruct (IH _ Hacc) as [H1 H2]. rewrite Hc in H1, H2.
  split; [exact H1|]. now rewrite gevents_cons, H2.
Qed.

(* With a clock that never runs backwards and clients that stamp their
   updates "now" or "same as the value they replace", nothing is ever dropped:
   in particular under a PAUSED clock, where every operation between two
   steps carries the same timestamp *)
Theorem timely_all_accepted : forall h g,
  stamps_le (g_stamps g) (g_now g) -> forallb gop_timely h = true ->
  all_accepted (snd (grun g h)) = true.
Proof.
  induction h as [|o h IH]; intros g Hs Hh; [reflexivity|].
  cbn [forallb] in Hh. apply andb_true_iff in Hh as [Ho Hh].
  rewrite grun_cons. cbn [snd all_accepted forallb].
  destruct (proj2 (gstep_ok_all g o) Hs Ho) as [-> Hs']. now apply IH.
Qed.

(* ... so such a history is, event by event, the history with the environment
   forgotten *)
Theorem timely_erase : forall h g,
  stamps_le (g_stamps g) (g_now g) -> forallb gop_timely h = true ->
  g_x (fst (grun g h)) = fst (xrun (g_x g) (gerase (g_classes g) h)) /\
  gevents (snd (grun g h)) = snd (xrun (g_x g) (gerase (g_classes g) h)).
Proof. intros. apply grun_erase. now apply timely_all_accepted. Qed.

Theorem read_latest_any_time : forall g h i t b a k ty d,
  stamps_le (g_stamps g) (g_now g) -> forallb gop_timely h = true ->
  no_setup (erase (gerase (g_classes g) h)) = true ->
  inst_get (w_inst (x_w (g_x g))) i = Some b -> bind_get b a = Some (k, ty, d) ->
  tunable_get (x_w (g_x (fst (grun g h)))) (Some (i, t)) a =
  GResult (match last_write (x_w (g_x g)) (erase (gerase (g_classes g) h)) k with
           | Some v => EvVal v
           | None => py_read (x_w (g_x g)) i a
           end).
Proof.
  intros g h i t b a k ty d Hs Hh Hn Hi Ha.
  destruct (timely_erase h g Hs Hh) as [-> _].
  eapply read_latest_any_truth; eassumption.
Qed.

Theorem read_latest_event_any_time : forall g h1 h2 i b a k ty d,
  stamps_le (g_stamps g) (g_now g) ->
  forallb gop_timely (h1 ++ GX (XOp (PyRead i a)) :: h2) = true ->
  no_setup (erase (gerase (g_classes g) h1)) = true ->
  inst_get (w_inst (x_w (g_x g))) i = Some b -> bind_get b a = Some (k, ty, d) ->
  nth (length (gerase (g_classes g) h1))
      (gevents (snd (grun g (h1 ++ GX (XOp (PyRead i a)) :: h2)))) XDone =
  XEv (match last_write (x_w (g_x g)) (erase (gerase (g_classes g) h1)) k with
       | Some v => EvVal v
       | None => py_read (x_w (g_x g)) i a
       end).
Proof.
  intros g h1 h2 i b a k ty d Hs Hh Hn Hi Ha.
  destruct (timely_erase _ g Hs Hh) as [_ ->].
  rewrite gerase_app, gerase_cons. cbn [gerase1 app].
  eapply read_latest_event_any_truth; eassumption.
Qed.

(* a stale update -- stamped older than the value the topic holds -- is
   dropped by ntcore: nothing changes (the hypothesis of [grun_erase] is needed) *)
Theorem stale_write_dropped : forall g k ty v s,
  accepts (stamp_get (g_stamps g) k) (sel_time (g_now g) (stamp_get (g_stamps g) k) s) = false ->
  gstep g (GNtWriteAt k ty v s) = (g, GEv (XEv EvWrote), false).
Proof.
  intros [[[nt ins] tr] now st cl] k ty v s H. cbn [g_now g_stamps] in H.
  cbn [gstep]. unfold gwrite, nt_write_at. cbn [g_now g_stamps g_x x_w w_nt w_inst x_truth g_classes].
  rewrite H. reflexivity.
Qed.

Lemma body_get_filter_other : forall b x n, x <> n ->
  body_get (filter (fun y => negb (String.eqb (member_name y) x)) b) n = body_get b n.
Proof.
  induction b as [|y b IH]; intros x n Hne; [reflexivity|]. cbn [filter body_get].
  destruct (String.eqb (member_name y) x) eqn:E; cbn [negb].
  - apply String.eqb_eq in E. destruct (String.eqb (member_name y) n) eqn:E2.
    + apply String.eqb_eq in E2. congruence.
    + now apply IH.
  - cbn [body_get]. destruct (String.eqb (member_name y) n); [reflexivity | now apply IH].
Qed.

Lemma body_get_assign : forall b m n,
  body_get (body_assign b m) n =
  if String.eqb (member_name m) n then Some m else body_get b n.
Proof.
  intros b m n. unfold body_assign. cbn [body_get].
  destruct (String.eqb (member_name m) n) eqn:E; [reflexivity|].
  apply body_get_filter_other. intros Hn. subst n. now rewrite String.eqb_refl in E.
Qed.

(* `cls.name = obj`: attribute lookup on the class finds obj under that name
   and what it found before under every other name *)
Theorem class_getattr_assign : forall mro m n,
  class_getattr (mro_assign mro m) n =
  if String.eqb (member_name m) n then Some m else class_getattr mro n.
Proof.
  intros [|b r] m n; cbn [mro_assign class_getattr].
  - cbn [body_get]. now destruct (String.eqb (member_name m) n).
  - rewrite body_get_assign. now destruct (String.eqb (member_name m) n).
Qed.

Lemma classes_assign_same : forall cl c m mro,
  nth_error cl c = Some mro -> nth_error (classes_assign cl c m) c = Some (mro_assign mro m).
Proof.
  induction cl as [|x cl IH]; intros [|c] m mro H; try discriminate; cbn in *.
  - now injection H as ->.
  - now apply IH.
Qed.

Lemma classes_assign_other : forall cl c m c', c' <> c ->
  nth_error (classes_assign cl c m) c' = nth_error cl c'.
Proof.
  induction cl as [|x cl IH]; intros [|c] m [|c'] H; try reflexivity; try congruence.
  cbn. apply IH. congruence.
Qed.

(* assigning to a class attribute touches nothing but that class: no topic,
   no timestamp, no binding of an instance that is already set up, no other
   class *)
Theorem class_assign_changes_nothing_else : forall g c m,
  let g' := fst (fst (gstep g (GClassAssign c m))) in
  g_x g' = g_x g /\ g_stamps g' = g_stamps g /\ g_now g' = g_now g /\
  snd (gstep g (GClassAssign c m)) = true /\
  forall c', c' <> c -> nth_error (g_classes g') c' = nth_error (g_classes g) c'.
Proof.
  intros g c m. cbn [gstep]. destruct (nth_error (g_classes g) c); cbn.
  - repeat split. intros c' Hc. now apply classes_assign_other.
  - repeat split.
Qed.

Theorem setup_binds_current_class : forall g i c mro p n d,
  stamps_le (g_stamps g) (g_now g) ->
  nth_error (g_classes g) c = Some mro ->
  (forall b x, In b mro -> In x b -> no_slash (member_name x) = true) ->
  class_getattr mro (d_attr d) = Some (MTun d) -> public d = true ->
  snd (fst (gstep g (GSetupOf i c p n))) = GEv (XEv (EvSetup true)) ->
  snd (gstep g (GSetupOf i c p n)) = true /\
  exists b ty,
    inst_get (w_inst (x_w (g_x (fst (fst (gstep g (GSetupOf i c p n))))))) i = Some b /\
    decl_topic (d_default d) (d_hint d) = Ok ty /\
    bind_get b (d_attr d) =
      Some (key_of p n (d_subtable d) (d_attr d), ty, entry_value ty (d_default d)) /\
    nt_get (w_nt (x_w (g_x (fst (fst (gstep g (GSetupOf i c p n)))))))
           (key_of p n (d_subtable d) (d_attr d)) =
    if d_wd d then Some (ty, entry_value ty (d_default d))
    else match nt_get (w_nt (x_w (g_x g))) (key_of p n (d_subtable d) (d_attr d)) with
         | Some tv => Some tv
         | None => Some (ty, entry_value ty (d_default d))
         end.
Proof.
  intros g i c mro p n d Hs Hc Hns Hg Hpub Hev. cbn [gstep] in *. rewrite Hc in *.
  destruct (gsetup_ok g i (class_members mro) p n True) as [A T].
  destruct (T Hs I) as [Hok _]. split; [exact Hok|].
  destruct (A Hok) as [Hx _]. rewrite xrun_one, xstep_op, Hev in Hx. injection Hx as Hx He.
  rewrite <- Hx. cbn [x_w]. exact (setup_hierarchy (x_w (g_x g)) i mro p n d Hns Hg Hpub He).
Qed.

(* [setup_binds_current_class] after `cls.A = tunable(v)` (what every
   construction of a magicbot StateMachine does with state_names /
   state_descriptions): an instance set up afterwards has A bound to the NEW
   tunable *)
Theorem setup_after_class_assign : forall g i c mro p n d,
  stamps_le (g_stamps g) (g_now g) ->
  nth_error (g_classes g) c = Some mro ->
  (forall b x, In b (mro_assign mro (MTun d)) -> In x b -> no_slash (member_name x) = true) ->
  public d = true ->
  let g1 := fst (fst (gstep g (GClassAssign c (MTun d)))) in
  snd (fst (gstep g1 (GSetupOf i c p n))) = GEv (XEv (EvSetup true)) ->
  exists b ty,
    inst_get (w_inst (x_w (g_x (fst (fst (gstep g1 (GSetupOf i c p n))))))) i = Some b /\
    decl_topic (d_default d) (d_hint d) = Ok ty /\
    bind_get b (d_attr d) =
      Some (key_of p n (d_subtable d) (d_attr d), ty, entry_value ty (d_default d)) /\
    nt_get (w_nt (x_w (g_x (fst (fst (gstep g1 (GSetupOf i c p n)))))))
           (key_of p n (d_subtable d) (d_attr d)) =
    if d_wd d then Some (ty, entry_value ty (d_default d))
    else match nt_get (w_nt (x_w (g_x g))) (key_of p n (d_subtable d) (d_attr d)) with
         | Some tv => Some tv
         | None => Some (ty, entry_value ty (d_default d))
         end.
Proof.
  intros g i c mro p n d Hs Hc Hns Hpub g1 Hev.
  assert (E1 : g1 = mkg (g_x g) (g_now g) (g_stamps g) (classes_assign (g_classes g) c (MTun d))).
  { unfold g1. cbn [gstep]. now rewrite Hc. }
  clearbody g1. subst g1.
  refine (proj2 (setup_binds_current_class (mkg _ _ _ _) i c (mro_assign mro (MTun d)) p n d Hs _ Hns _ Hpub Hev)).
  - now apply classes_assign_same.
  - rewrite class_getattr_assign. cbn [member_name]. now rewrite String.eqb_refl.
Qed.

Local Open Scope list_scope.

Lemma loop_history_app : forall p1 p2,
  loop_history (p1 ++ p2) = (loop_history p1 ++ loop_history p2)%list.
Proof. intros. unfold loop_history. now rewrite map_app, concat_app. Qed.

(* the operations of a history up to an operation that sits somewhere inside
   a pass: all earlier passes, the earlier locations of this pass, the earlier
   operations of this location *)
Lemma loop_history_split : forall before locs1 ops1 (o : gop) ops2 locs2 after,
  loop_history (before ++ [locs1 ++ (ops1 ++ o :: ops2) :: locs2] ++ after) =
  ((loop_history before ++ concat locs1 ++ ops1) ++ o :: (ops2 ++ concat locs2 ++ loop_history after))%list.
Proof.
  intros. rewrite !loop_history_app. unfold loop_history at 2. cbn [map concat].
  rewrite app_nil_r, concat_app. cbn [concat]. rewrite <- !app_assoc. reflexivity.
Qed.

Theorem read_latest_inside_a_pass : forall g before locs1 ops1 i a ops2 locs2 after b k ty d,
  stamps_le (g_stamps g) (g_now g) ->
  forallb gop_timely
    (loop_history (before ++ [locs1 ++ (ops1 ++ GX (XOp (PyRead i a)) :: ops2) :: locs2] ++ after)) = true ->
  no_setup (erase (gerase (g_classes g) (loop_history before ++ concat locs1 ++ ops1))) = true ->
  inst_get (w_inst (x_w (g_x g))) i = Some b -> bind_get b a = Some (k, ty, d) ->
  nth (length (gerase (g_classes g) (loop_history before ++ concat locs1 ++ ops1)))
      (gevents (snd (grun g (loop_history
         (before ++ [locs1 ++ (ops1 ++ GX (XOp (PyRead i a)) :: ops2) :: locs2] ++ after))))) XDone =
  XEv (match last_write (x_w (g_x g))
               (erase (gerase (g_classes g) (loop_history before ++ concat locs1 ++ ops1))) k with
       | Some v => EvVal v
       | None => py_read (x_w (g_x g)) i a
       end).
Proof.
  intros g before locs1 ops1 i a ops2 locs2 after b k ty d Hs Ht Hn Hi Ha.
  rewrite loop_history_split in *.
  eapply read_latest_event_any_time; eassumption.
Qed.

(* the hypothesis says that the two groupings flatten to one history, and
   [grun] sees the history only: congruence, nothing about [grun] is used *)
Theorem loop_structure_irrelevant : forall g p1 p2,
  loop_history p1 = loop_history p2 -> grun g (loop_history p1) = grun g (loop_history p2).
Proof. intros g p1 p2 H. now rewrite H. Qed.
