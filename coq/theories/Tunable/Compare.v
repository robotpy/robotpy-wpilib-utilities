(* Comparators used by the correspondence check of C09 (harness/c09.py): the
   observations recorded from the implementation are compared with the
   model's events INSIDE Coq with these functions.  The tests on VALUES are
   proved to decide Leibniz equality ([value_eqb_eq]), so a comparator cannot
   silently accept two different values.  Topic TYPES are compared as the
   strings NetworkTables reports ([type_string]); that map is not injective
   on [ntype] (struct "T[]" and the array of struct "T" have one string). *)
From Coq Require Import String Ascii List Bool ZArith NArith.
From RV Require Import Tunable.Model.
Import ListNotations.
Open Scope string_scope.

Fixpoint list_eqb {A : Type} (f : A -> A -> bool) (l1 l2 : list A) : bool :=
  match l1, l2 with
  | [], [] => true
  | x :: r1, y :: r2 => f x y && list_eqb f r1 r2
  | _, _ => false
  end.

Definition scalar_eqb (a b : scalar) : bool :=
  match a, b with
  | SBool x, SBool y => Bool.eqb x y
  | SInt x, SInt y => Z.eqb x y
  | SFloat x, SFloat y => Z.eqb x y
  | SStr x, SStr y => String.eqb x y
  | SBytes x, SBytes y => list_eqb N.eqb x y
  | SStruct n f, SStruct m g => String.eqb n m && list_eqb Z.eqb f g
  | SOther, SOther => true
  | _, _ => false
  end.

Definition value_eqb (a b : value) : bool :=
  match a, b with
  | VScalar x, VScalar y => scalar_eqb x y
  | VList x, VList y => list_eqb scalar_eqb x y
  | VTuple x, VTuple y => list_eqb scalar_eqb x y
  | _, _ => false
  end.

(* the model's duplicate test ([is_dup]) is the same function, so what is
   proved of [value_eqb] below holds of it *)
Lemma value_eqb_same : value_eqb = same_value.
Proof. reflexivity. Qed.

Lemma list_eqb_eq : forall (A : Type) (f : A -> A -> bool),
  (forall x y, f x y = true <-> x = y) ->
  forall l1 l2, list_eqb f l1 l2 = true <-> l1 = l2.
Proof.
  intros A f Hf. induction l1 as [|x l1 IH]; intros [|y l2]; simpl.
  - split; reflexivity.
  - split; discriminate.
  - split; discriminate.
  - rewrite andb_true_iff, Hf, IH. split.
    + intros [Hx Hl]; rewrite Hx, Hl; reflexivity.
    + intros Heq; injection Heq as Hx Hl; split; [exact Hx | exact Hl].
Qed.

(* each constructor compares its arguments with tests that decide equality *)
Lemma scalar_eqb_eq : forall a b, scalar_eqb a b = true <-> a = b.
Proof.
  intros a b.
  destruct a as [x|x|x|x|x|n f|], b as [y|y|y|y|y|m g|]; simpl;
    try (split; discriminate).   (* two different constructors *)
  (* the same constructor: the test on the arguments decides their equality, and constructors are injective *)
  - (* SBool *) rewrite Bool.eqb_true_iff. split; [intros E; rewrite E; reflexivity | intros [= E]; exact E].
  - (* SInt *) rewrite Z.eqb_eq. split; [intros E; rewrite E; reflexivity | intros [= E]; exact E].
  - (* SFloat *) rewrite Z.eqb_eq. split; [intros E; rewrite E; reflexivity | intros [= E]; exact E].
  - (* SStr *) rewrite String.eqb_eq. split; [intros E; rewrite E; reflexivity | intros [= E]; exact E].
  - (* SBytes *) rewrite (list_eqb_eq _ _ N.eqb_eq). split; [intros E; rewrite E; reflexivity | intros [= E]; exact E].
  - (* SStruct *) rewrite andb_true_iff, String.eqb_eq, (list_eqb_eq _ _ Z.eqb_eq). split.
    + intros [En Ef]; rewrite En, Ef; reflexivity.
    + intros [= En Ef]; split; [exact En | exact Ef].
  - (* SOther *) split; reflexivity.
Qed.

Lemma value_eqb_eq : forall a b, value_eqb a b = true <-> a = b.
Proof.
  intros a b. destruct a as [x|x|x], b as [y|y|y]; simpl; try (split; discriminate).
  - (* VScalar *) rewrite scalar_eqb_eq. split; [intros E; rewrite E; reflexivity | intros [= E]; exact E].
  - (* VList *) rewrite (list_eqb_eq _ _ scalar_eqb_eq). split; [intros E; rewrite E; reflexivity | intros [= E]; exact E].
  - (* VTuple *) rewrite (list_eqb_eq _ _ scalar_eqb_eq). split; [intros E; rewrite E; reflexivity | intros [= E]; exact E].
Qed.

(* what the harness records per operation; exception classes are masked
   (the property does not fix them), the topic type is its type string *)
Inductive obs :=
| OSetup (ok : bool)
| OWrote
| OVal (v : value)
| OErr
| ONt (r : option (string * value))
| OBad                         (* an observation the harness could not canonicalise *)
| OSelf                        (* an attribute read on an INSTANCE handed back the tunable object *)
| ODone                        (* the harness changed the owner's truthiness / stepped the clock /
                                  assigned a class attribute / constructed an instance (no call of
                                  magic_tunable) *)
| OStamp (t : Z)               (* the timestamp an independent subscriber sees on a topic, relative
                                  to the start of the history (only recorded under the paused clock) *)
| OAny.                        (* masked: access to a tunable that is not bound (instance not set
                                  up yet, or a private name setup_tunables skips) -- the property
                                  says nothing about it *)

Definition ev_match (e : event) (o : obs) : bool :=
  match e, o with
  | EvSetup a, OSetup b => Bool.eqb a b
  | EvWrote, OWrote => true
  | EvVal v, OVal v' => value_eqb v v'
  | EvErr, OErr => true
  | EvNt None, ONt None => true
  | EvNt (Some (ty, v)), ONt (Some (s, v')) => String.eqb (type_string ty) s && value_eqb v v'
  | EvErr, OAny => true        (* the model agrees that nothing is bound there *)
  | _, _ => false
  end.

(* list_eqb on two different types *)
Fixpoint all2 {A B : Type} (f : A -> B -> bool) (l1 : list A) (l2 : list B) : bool :=
  match l1, l2 with
  | [], [] => true
  | x :: r1, y :: r2 => f x y && all2 f r1 r2
  | _, _ => false
  end.

Definition hist_ok (c : list op * list obs) : bool :=
  all2 ev_match (snd (run w0 (fst c))) (snd c).

(* histories in which the owners' truthiness (bool(instance): __len__ /
   __bool__ of the owner class) changes as well; OSelf matches only XSelf,
   which the model never emits for a read on an instance *)
Definition xev_match (e : xevent) (o : obs) : bool :=
  match e, o with
  | XEv e', _ => ev_match e' o
  | XSelf, OSelf => true
  | XDone, ODone => true
  | _, _ => false
  end.

Definition xhist_ok (c : list xop * list obs) : bool :=
  all2 xev_match (snd (xrun x0 (fst c))) (snd c).

(* a history whose classes come from a PROGRAM of shared tunable objects
   (Model section 12): [fst c] is Model.prog_in_model of that program and the
   classes used -- every class statement executes and no class is outside the
   model (one object under two public names of one class); it is [true] for a
   history whose classes are written out directly.  A case outside the model
   counts as a disagreement, it is never silently accepted. *)
Definition ghist_ok (c : bool * (list xop * list obs)) : bool :=
  fst c && xhist_ok (snd c).

(* histories in the environment of Model section 13: a clock (paused and
   stepped, or running), client updates with timestamps of their own, class
   attributes assigned between two setups (StateMachine instances constructed
   one after another).  [c] = (the classes as their class statements leave
   them, the clock at the start, (operations, observations)).  A timestamp
   that could not be recorded (running clock: OAny) is masked. *)
Definition gev_match (e : gevent * bool) (o : obs) : bool :=
  match fst e, o with
  | GEv e', _ => xev_match e' o
  | GStamp t, OStamp t' => Z.eqb t t'
  | GStamp _, OAny => true
  | GDone, ODone => true
  | _, _ => false
  end.

Definition envhist_ok (c : list (list classbody) * Z * (list gop * list obs)) : bool :=
  all2 gev_match (snd (grun (g0 (snd (fst c)) (fst (fst c))) (fst (snd c)))) (snd (snd c)).

Fixpoint bad_from {A : Type} (ok : A -> bool) (i : nat) (l : list A) : list nat :=
  match l with
  | [] => []
  | c :: r => if ok c then bad_from ok (S i) r else i :: bad_from ok (S i) r
  end.

Inductive gobs :=
| GRaise                       (* the class statement raised *)
| GCreated                     (* class created; not bound (default does not fit the hinted type) *)
| GBound (s : string).         (* bound; type string read back from NetworkTables *)

Definition grid_match (dh : value * option tyexpr) (g : gobs) : bool :=
  match res_to_option (decl_topic (fst dh) (snd dh)), g with
  | None, GRaise => true
  | Some _, GCreated => true
  | Some t, GBound s => String.eqb (type_string t) s
  | _, _ => false
  end.

(* observed results, aligned with the model's own enumeration [grid_decls];
   indices in binary (the grid has 37842 points), at most the first 40
   disagreements are reported *)
Fixpoint bad_grid_all (i : N) (l : list (value * option tyexpr)) (o : list gobs) : list N :=
  match l, o with
  | [], [] => []
  | dh :: r, g :: ro => if grid_match dh g then bad_grid_all (N.succ i) r ro
                        else i :: bad_grid_all (N.succ i) r ro
  | _, _ => [i]                (* lengths differ *)
  end.
Definition bad_grid (l : list (value * option tyexpr)) (o : list gobs) : list N :=
  firstn 40 (bad_grid_all 0%N l o).

(* the same with the hint WRITTEN in a given spelling (Model.spell): the model
   resolves it the way __set_name__ does (__orig_class__ / get_type_hints /
   ClassVar and tunable unwrapping) before the table lookup.  Point i of the
   grid uses spelling  pattern[i mod length pattern]  -- the harness writes the
   class statement of point i in exactly that spelling. *)
Definition grid_match_src (sp : spelling) (dh : value * option tyexpr) (g : gobs) : bool :=
  match res_to_option (decl_topic_src (fst dh) (spell_opt sp (snd dh))), g with
  | None, GRaise => true
  | Some _, GCreated => true
  | Some t, GBound s => String.eqb (type_string t) s
  | _, _ => false
  end.

Fixpoint bad_grid_src_all (pattern cur : list spelling) (i : N)
         (l : list (value * option tyexpr)) (o : list gobs) : list N :=
  match l, o with
  | [], [] => []
  | dh :: r, g :: ro =>
      match (match cur with [] => pattern | _ => cur end) with
      | [] => [i]              (* empty pattern *)
      | sp :: rest =>
          if grid_match_src sp dh g then bad_grid_src_all pattern rest (N.succ i) r ro
          else i :: bad_grid_src_all pattern rest (N.succ i) r ro
      end
  | _, _ => [i]                (* lengths differ *)
  end.
Definition bad_grid_src (pattern : list spelling) (l : list (value * option tyexpr))
           (o : list gobs) : list N :=
  firstn 40 (bad_grid_src_all pattern pattern 0%N l o).

Inductive fobs :=
| FRaise                                   (* collect_feedbacks raised *)
| FTopic (key : string)                    (* the one topic that appeared under the owner *)
         (before : option string)          (* its type string right after collect_feedbacks *)
         (after : option string)           (* ... and after the setter was called with a value *)
| FBad.

Definition opt_string_eqb (a b : option string) : bool :=
  match a, b with
  | None, None => true
  | Some x, Some y => String.eqb x y
  | _, _ => false
  end.

(* [v]: the value the getter returned (decides the type of a generic entry;
   ntcore's inference, see Model.generic_infer) *)
Definition fb_match (prefix : option string) (cname : string) (explicit : option string)
           (name : string) (ann : option tyexpr) (v : value) (o : fobs) : bool :=
  match fb_publisher ann, o with
  | FbRaises, FRaise => true
  | FbTyped t, FTopic k b a =>
      String.eqb k (fb_topic_key prefix cname explicit name)
      && opt_string_eqb b (Some (type_string t))
      && opt_string_eqb a (Some (type_string t))
  | FbGeneric, FTopic k b a =>
      String.eqb k (fb_topic_key prefix cname explicit name)
      && opt_string_eqb b None
      && opt_string_eqb a (option_map type_string (generic_infer v))
  | _, _ => false
  end.
