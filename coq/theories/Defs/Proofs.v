(* Proofs about the model of Defs/Model.v, for all signatures, class bodies and
   class hierarchies (lists of class dicts of any length).  Each loop of the
   model (sig_loop, build_loop, eval_body, set_names, define_from) has one
   specification lemma, a [match] on its result that says what [Ok] and what
   each error implies; the theorems of Properties/C12.v are read off these. *)
From Coq Require Import List String Bool Arith Lia.
From RV Require Import Defs.Model Defs.Spec.
Import ListNotations.
Open Scope string_scope.
Open Scope list_scope.

Lemma mem_In x l : mem x l = true <-> In x l.
Proof.
  induction l as [|y r IH]; simpl.
  - split; [discriminate | tauto].
  - destruct (String.eqb_spec y x) as [E|E].
    + subst. split; auto.
    + rewrite IH. split; [auto | intros [H|H]; [congruence | exact H]].
Qed.

Lemma mem_false x l : mem x l = false <-> ~ In x l.
Proof.
  rewrite <- mem_In. destruct (mem x l); split; intros; congruence.
Qed.

Lemma mem_app x a b : mem x (a ++ b) = mem x a || mem x b.
Proof.
  induction a as [|y r IH]; simpl; [reflexivity|].
  destruct (String.eqb y x); [reflexivity | exact IH].
Qed.

Lemma filter_all {A} (f : A -> bool) l :
  (forall x, In x l -> f x = true) -> filter f l = l.
Proof.
  induction l as [|a r IH]; simpl; intros H; [reflexivity|].
  rewrite (H a (or_introl eq_refl)). f_equal. apply IH. intros x Hx. apply H. right. exact Hx.
Qed.

Lemma filter_none_all {A} (f : A -> bool) l :
  filter (fun x => negb (f x)) l = [] -> filter f l = l.
Proof.
  induction l as [|a r IH]; cbn [filter]; [reflexivity|].
  destruct (f a); cbn [negb]; [intros H; f_equal; exact (IH H) | discriminate].
Qed.

Lemma filter_filter {A} (p q : A -> bool) l :
  filter p (filter q l) = filter (fun x => q x && p x) l.
Proof.
  induction l as [|a r IH]; simpl; [reflexivity|].
  destruct (q a); simpl; [destruct (p a)|]; rewrite IH; reflexivity.
Qed.

Lemma NoDup_snoc {A} (l : list A) x : NoDup l -> ~ In x l -> NoDup (l ++ [x]).
Proof.
  induction 1 as [|a r Ha Hr IH]; simpl; intros Hx.
  - constructor; [intros [] | constructor].
  - constructor.
    + rewrite in_app_iff. simpl. intros [H|[H|[]]]; [auto | subst; apply Hx; left; reflexivity].
    + apply IH. intros H. apply Hx. right. exact H.
Qed.

Lemma two_distinct {A} (l : list A) : NoDup l -> 2 <= List.length l ->
  exists x y, x <> y /\ In x l /\ In y l.
Proof.
  destruct l as [|x [|y l]]; cbn [List.length]; intros N L; try lia.
  exists x, y. apply NoDup_cons_iff in N. cbn [In] in *. repeat split; auto.
  intros E. apply (proj1 N). left. symmetry. exact E.
Qed.

Definition allowedb (n : string) : bool := mem n allowed_args.
Definition disallowedb (n : string) : bool := negb (allowedb n).

(* one round of the loop; a name goes to the one or the other accumulator *)
Lemma sig_loop_cons i p r a inv :
  sig_loop i (p :: r) a inv =
  if Nat.eqb i 0 && negb (String.eqb (p_name p) "self") then Err ErrFirstNotSelf
  else match p_kind p with
       | VarPos => Err ErrVarPos
       | VarKw => Err ErrVarKw
       | KwOnly => Err ErrKwOnly
       | PosOnly | PosOrKw =>
           sig_loop (S i) r (a ++ filter allowedb [p_name p]) (inv ++ filter disallowedb [p_name p])
       end.
Proof.
  cbn [sig_loop filter]. unfold disallowedb, allowedb.
  destruct (mem (p_name p) allowed_args); cbn [negb]; rewrite app_nil_r; reflexivity.
Qed.

(* the verdict of the loop from position [i] on, [a] and [inv] collected so far *)
Definition sig_loop_post (i : nat) (ps : list param) (a inv : list string)
    (res : result (list string * list string) sigerr) : Prop :=
  match res with
  | Ok (a', inv') =>
      (i = 0 -> ~ first_not_self ps) /\ ~ Exists bad_kind ps /\
      a' = a ++ filter allowedb (map p_name ps) /\ inv' = inv ++ filter disallowedb (map p_name ps)
  | Err ErrFirstNotSelf => i = 0 /\ first_not_self ps
  | Err ErrVarPos => Exists (fun p => p_kind p = VarPos) ps
  | Err ErrVarKw => Exists (fun p => p_kind p = VarKw) ps
  | Err ErrKwOnly => Exists (fun p => p_kind p = KwOnly) ps
  | Err (ErrInvalidNames _) => False
  end.

(* past a parameter of a kind the loop lets pass, the verdict on the rest is the verdict on the whole *)
Lemma sig_loop_post_cons i p r a inv res :
  (i = 0 -> ~ first_not_self (p :: r)) -> ~ bad_kind p ->
  sig_loop_post (S i) r (a ++ filter allowedb [p_name p]) (inv ++ filter disallowedb [p_name p]) res ->
  sig_loop_post i (p :: r) a inv res.
Proof.
  intros F NB. destruct res as [[a' inv']|e]; cbn [sig_loop_post].
  - intros (_ & B & -> & ->). rewrite <- !app_assoc, <- !filter_app.
    repeat split; [exact F|]. intros H. apply Exists_cons in H. destruct H as [H|H]; [exact (NB H) | exact (B H)].
  - destruct e.
    + intros [E _]. discriminate.
    + apply Exists_cons_tl.
    + apply Exists_cons_tl.
    + apply Exists_cons_tl.
    + trivial.
Qed.

Lemma sig_loop_spec ps : forall i a inv, sig_loop_post i ps a inv (sig_loop i ps a inv).
Proof.
  induction ps as [|p r IH]; intros i a inv.
  - cbn. rewrite !app_nil_r. repeat split; [intros _ [] | intros H; inversion H].
  - rewrite sig_loop_cons.
    destruct (Nat.eqb i 0 && negb (String.eqb (p_name p) "self")) eqn:T.
    { apply andb_true_iff in T. destruct T as [T1 T2]. split; [apply Nat.eqb_eq, T1|].
      apply negb_true_iff, String.eqb_neq in T2. exact T2. }
    assert (F : i = 0 -> ~ first_not_self (p :: r)).
    { intros ->. apply negb_false_iff, String.eqb_eq in T. intros H. exact (H T). }
    destruct (p_kind p) eqn:K; try (apply Exists_cons_hd; exact K).
    (* the two kinds the loop lets pass *)
    all: apply (sig_loop_post_cons i p r a inv _ F); [|apply IH].
    all: unfold bad_kind; rewrite K; intuition discriminate.
Qed.

Lemma names_bad ps : filter disallowedb (map p_name ps) <> [] <-> Exists bad_name ps.
Proof.
  unfold disallowedb. induction ps as [|p r IH]; cbn [map filter].
  - split; [congruence | intros H; inversion H].
  - destruct (allowedb (p_name p)) eqn:E; cbn [negb].
    + rewrite IH, Exists_cons. split; [auto|]. intros [H|H]; [|exact H].
      exfalso. apply H. apply mem_In. exact E.
    + split; [|discriminate]. intros _. apply Exists_cons_hd. apply mem_false. exact E.
Qed.

Theorem validate_sig_spec ps :
  match validate_sig ps with
  | Ok args => args = map p_name ps /\ ~ sig_faulty ps
  | Err ErrFirstNotSelf => first_not_self ps
  | Err ErrVarPos => Exists (fun p => p_kind p = VarPos) ps
  | Err ErrVarKw => Exists (fun p => p_kind p = VarKw) ps
  | Err ErrKwOnly => Exists (fun p => p_kind p = KwOnly) ps
  | Err (ErrInvalidNames l) =>
      l = filter (fun n => negb (mem n allowed_args)) (map p_name ps) /\ l <> [] /\
      ~ first_not_self ps /\ ~ Exists bad_kind ps
  end.
Proof.
  unfold validate_sig. pose proof (sig_loop_spec ps 0 [] []) as S.
  destruct (sig_loop 0 ps [] []) as [[args inv]|e].
  - destruct S as (F & K & -> & ->). cbn [app]. specialize (F eq_refl).
    destruct (filter disallowedb (map p_name ps)) as [|x l] eqn:N.
    + split; [apply filter_none_all, N|]. unfold sig_faulty. rewrite <- names_bad, N. tauto.
    + split; [symmetry; exact N|]. split; [discriminate|]. split; [exact F | exact K].
  - destruct e; [exact (proj2 S) | exact S .. | destruct S].
Qed.

Theorem sig_err_sound ps e : validate_sig ps = Err e ->
  match e with
  | ErrFirstNotSelf => first_not_self ps
  | ErrVarPos => Exists (fun p => p_kind p = VarPos) ps
  | ErrVarKw => Exists (fun p => p_kind p = VarKw) ps
  | ErrKwOnly => Exists (fun p => p_kind p = KwOnly) ps
  | ErrInvalidNames l =>
      l = filter (fun n => negb (mem n allowed_args)) (map p_name ps) /\ l <> [] /\
      ~ first_not_self ps /\ ~ Exists bad_kind ps
  end.
Proof. intros H. pose proof (validate_sig_spec ps) as S. rewrite H in S. exact S. Qed.

Theorem sig_ok_args ps args : validate_sig ps = Ok args -> args = map p_name ps.
Proof. intros H. pose proof (validate_sig_spec ps) as S. rewrite H in S. exact (proj1 S). Qed.

Theorem sig_reject_iff ps : (exists e, validate_sig ps = Err e) <-> sig_faulty ps.
Proof.
  pose proof (validate_sig_spec ps) as S. split.
  - intros [e H]. rewrite H in S. unfold sig_faulty, bad_kind.
    destruct e as [| | | |l]; [tauto | right; left; revert S; apply Exists_impl; tauto .. |].
    destruct S as (-> & N & _). right; right. apply names_bad, N.
  - intros F. destruct (validate_sig ps) as [args|e]; [destruct S; contradiction | exists e; reflexivity].
Qed.

Theorem sig_ok_iff ps : validate_sig ps = Ok (map p_name ps) <-> ~ sig_faulty ps.
Proof.
  rewrite <- sig_reject_iff. split.
  - intros H [e E]. congruence.
  - intros H. destruct (validate_sig ps) as [args|e] eqn:E.
    + rewrite (sig_ok_args ps args E). reflexivity.
    + exfalso. apply H. exists e. reflexivity.
Qed.

Lemma env_get_allowed {V} (e : callenv V) n : In n allowed_args -> env_get e n <> None.
Proof.
  unfold allowed_args. simpl. intros [<-|[<-|[<-|[<-|[]]]]]; unfold env_get; simpl; discriminate.
Qed.

Theorem adapter_order ps args : validate_sig ps = Ok args ->
  forall V (e : callenv V),
    adapter args e = map (fun p => env_get e (p_name p)) ps /\ ~ In None (adapter args e).
Proof.
  intros H V e. pose proof (validate_sig_spec ps) as S. rewrite H in S. destruct S as [-> NF].
  unfold adapter. rewrite map_map. split; [reflexivity|].
  rewrite in_map_iff. intros [p [Hn Hp]].
  destruct (mem (p_name p) allowed_args) eqn:M.
  - apply mem_In in M. exact (env_get_allowed e _ M Hn).
  - apply NF. right; right. apply Exists_exists. exists p. split; [exact Hp|].
    apply mem_false. exact M.
Qed.

(* whichever way the decorator is spelled, the wrapper is built by ONE call of
   _State.__init__ with the options as the source wrote them *)
Lemma construct_eq reserved d :
  construct reserved d =
  init_state reserved d (marked_first (d_deco d)) (marked_must_finish (d_deco d))
             (marked_timed (d_deco d)) (marked_default (d_deco d)).
Proof. unfold construct. destruct (d_deco d); reflexivity. Qed.

Lemma construct_cases reserved d :
  match construct reserved d with
  | Ok s =>
      ~ In (d_fname d) reserved /\ validate_sig (d_params d) = Ok (s_args s) /\
      s_first s = marked_first (d_deco d) /\ s_must_finish s = marked_must_finish (d_deco d) /\
      s_default s = marked_default (d_deco d) /\ s_timed s = marked_timed (d_deco d) /\
      s_name s = d_fname d /\ s_desc s = d_doc d
  | Err EInvalidStateName => In (d_fname d) reserved
  | Err (ESig e) => ~ In (d_fname d) reserved /\ validate_sig (d_params d) = Err e
  | Err _ => False
  end.
Proof.
  rewrite construct_eq. unfold init_state, check_name.
  destruct (mem (d_fname d) reserved) eqn:M; [apply mem_In, M|]. apply mem_false in M.
  destruct (validate_sig (d_params d)); cbn; repeat split; exact M.
Qed.

Theorem name_reject_iff reserved d :
  construct reserved d = Err EInvalidStateName <-> In (d_fname d) reserved.
Proof.
  pose proof (construct_cases reserved d) as C. split.
  - intros H. rewrite H in C. exact C.
  - intros I. destruct (construct reserved d) as [s|[]]; try reflexivity; tauto.
Qed.

Theorem marks_kept reserved d s : construct reserved d = Ok s ->
  s_first s = marked_first (d_deco d) /\ s_must_finish s = marked_must_finish (d_deco d) /\
  s_default s = marked_default (d_deco d) /\ s_timed s = marked_timed (d_deco d) /\
  s_name s = d_fname d /\ s_desc s = d_doc d.
Proof. intros H. pose proof (construct_cases reserved d) as C. rewrite H in C. apply C. Qed.

Lemma construct_name reserved d s : construct reserved d = Ok s -> s_name s = d_fname d.
Proof. intros H. destruct (marks_kept reserved d s H) as (_ & _ & _ & _ & N & _). exact N. Qed.

(* the two call paths of [state] agree: the function and the options in one
   call give exactly what the decorator returned for these options gives when
   it is applied to the function *)
Theorem state_fn_paths_agree reserved g first mf :
  exists dec, state_fn reserved None first mf = RDecorator dec /\
              state_fn reserved (Some g) first mf = RWrapper (dec g).
Proof. eexists. split; reflexivity. Qed.

(* two decorated functions that differ only in the SPELLING of the decorator
   (same function, same options) yield the same state or the same error *)
Theorem spelling_irrelevant reserved d d' :
  d_fname d = d_fname d' -> d_params d = d_params d' -> d_doc d = d_doc d' ->
  marked_first (d_deco d) = marked_first (d_deco d') ->
  marked_must_finish (d_deco d) = marked_must_finish (d_deco d') ->
  marked_timed (d_deco d) = marked_timed (d_deco d') ->
  marked_default (d_deco d) = marked_default (d_deco d') ->
  construct reserved d = construct reserved d'.
Proof.
  intros E1 E2 E3 E4 E5 E6 E7. rewrite !construct_eq. unfold init_state.
  rewrite E1, E2, E3, E4, E5, E6, E7. reflexivity.
Qed.

Theorem construct_ok_iff reserved d :
  (exists s, construct reserved d = Ok s) <->
  ~ In (d_fname d) reserved /\ ~ sig_faulty (d_params d).
Proof.
  pose proof (construct_cases reserved d) as C. rewrite <- sig_reject_iff. split.
  - intros [s H]. rewrite H in C. destruct C as (N & S & _). split; [exact N|].
    intros [e E]. congruence.
  - intros [N S]. destruct (construct reserved d) as [s|[]]; try contradiction; [exists s; reflexivity|].
    destruct S. exists e. apply C.
Qed.

Lemma dict_get_set {V} k (v : V) k' d :
  dict_get k' (dict_set k v d) = if String.eqb k k' then Some v else dict_get k' d.
Proof.
  induction d as [|[k1 v1] r IH]; cbn [dict_set dict_get].
  - reflexivity.
  - destruct (String.eqb_spec k1 k) as [E|E]; cbn [dict_get].
    + subst k1. destruct (String.eqb_spec k k'); reflexivity.
    + destruct (String.eqb_spec k1 k') as [E'|E'].
      * subst k1. destruct (String.eqb_spec k k'); [congruence | reflexivity].
      * exact IH.
Qed.

Lemma keys_set {V} k (v : V) d :
  keys (dict_set k v d) = if mem k (keys d) then keys d else keys d ++ [k].
Proof.
  unfold keys. induction d as [|[k1 v1] r IH]; cbn [dict_set map mem fst].
  - reflexivity.
  - destruct (String.eqb k1 k); cbn [map fst]; [reflexivity|].
    rewrite IH. destruct (mem k (map fst r)); reflexivity.
Qed.

Lemma NoDup_keys_set {V} k (v : V) d : NoDup (keys d) -> NoDup (keys (dict_set k v d)).
Proof.
  intros H. rewrite keys_set. destruct (mem k (keys d)) eqn:M; [exact H|].
  apply NoDup_snoc; [exact H | apply mem_false; exact M].
Qed.

Lemma In_dict_set {V} k (v : V) k' m d :
  In (k', m) (dict_set k v d) -> (k' = k /\ m = v) \/ In (k', m) d.
Proof.
  induction d as [|[k1 v1] r IH]; cbn [dict_set].
  - intros [H|[]]. inversion H; subst. left. split; reflexivity.
  - destruct (String.eqb_spec k1 k) as [E|E].
    + intros [H|H]; [inversion H; subst; left; split; reflexivity | right; right; exact H].
    + intros [H|H]; [right; left; exact H|]. destruct (IH H) as [A|A]; [left; exact A | right; right; exact A].
Qed.

Lemma dict_get_In {V} (d : dict V) k v : dict_get k d = Some v -> In (k, v) d.
Proof.
  induction d as [|[k1 v1] r IH]; cbn [dict_get]; [discriminate|].
  destruct (String.eqb_spec k1 k).
  - intros H. inversion H; subst. left. reflexivity.
  - intros H. right. apply IH, H.
Qed.

Lemma In_dict_get {V} (d : dict V) k v : NoDup (keys d) -> In (k, v) d -> dict_get k d = Some v.
Proof.
  unfold keys. induction d as [|[k1 v1] r IH]; cbn [map fst dict_get]; intros N H; [destruct H|].
  inversion N as [|? ? Hn Hr]; subst.
  destruct H as [H|H].
  - inversion H; subst. rewrite String.eqb_refl. reflexivity.
  - destruct (String.eqb_spec k1 k) as [E|E].
    + subst. exfalso. apply Hn. apply in_map_iff. exists (k, v). split; [reflexivity | exact H].
    + apply IH; assumption.
Qed.

Lemma NoDup_keys_filter {V} (p : string * V -> bool) (d : dict V) :
  NoDup (keys d) -> NoDup (keys (filter p d)).
Proof.
  unfold keys. induction d as [|a r IH]; cbn [filter map]; intros N; [constructor|].
  inversion N as [|? ? Hn Hr]; subst.
  destruct (p a); cbn [map]; [|apply IH, Hr].
  constructor; [|apply IH, Hr].
  intros H. apply Hn. apply in_map_iff in H. destruct H as [x [E Hx]].
  apply filter_In in Hx. apply in_map_iff. exists x. split; [exact E | apply Hx].
Qed.

Lemma lookup_last_dict_get {V} (d : dict V) k : NoDup (keys d) -> lookup_last k d = dict_get k d.
Proof.
  unfold keys. induction d as [|[k1 v1] r IH]; cbn [lookup_last dict_get map fst]; intros N; [reflexivity|].
  inversion N as [|? ? Hn Hr]; subst. rewrite (IH Hr).
  destruct (String.eqb_spec k1 k) as [E|E].
  - subst. destruct (dict_get k r) as [v|] eqn:G; [|reflexivity].
    exfalso. apply Hn. apply dict_get_In in G. apply in_map_iff. exists (k, v). split; [reflexivity | exact G].
  - destruct (dict_get k r); reflexivity.
Qed.

Lemma lookup_last_app {V} k (a b : list (string * V)) :
  lookup_last k (a ++ b) = match lookup_last k b with Some v => Some v | None => lookup_last k a end.
Proof.
  induction a as [|[k1 v1] r IH]; cbn [app lookup_last].
  - destruct (lookup_last k b); reflexivity.
  - rewrite IH. destruct (lookup_last k b); reflexivity.
Qed.

Lemma lookup_last_In {V} k (b : list (string * V)) v : lookup_last k b = Some v -> In (k, v) b.
Proof.
  induction b as [|[k1 v1] r IH]; cbn [lookup_last]; [discriminate|].
  destruct (lookup_last k r) as [w|].
  - intros H. right. apply IH. exact H.
  - destruct (String.eqb_spec k1 k); [|discriminate]. intros H. inversion H; subst. left. reflexivity.
Qed.

Lemma dict_get_update {V} k (src : list (string * V)) : forall d,
  dict_get k (dict_update d src) =
  match lookup_last k src with Some v => Some v | None => dict_get k d end.
Proof.
  unfold dict_update. induction src as [|[k1 v1] r IH]; intros d; cbn [fold_left lookup_last fst snd].
  - reflexivity.
  - rewrite IH. destruct (lookup_last k r); [reflexivity|].
    rewrite dict_get_set. destruct (String.eqb k1 k); reflexivity.
Qed.

Lemma NoDup_keys_update {V} (src : list (string * V)) : forall d,
  NoDup (keys d) -> NoDup (keys (dict_update d src)).
Proof.
  unfold dict_update. induction src as [|[k1 v1] r IH]; intros d H; cbn [fold_left fst snd].
  - exact H.
  - apply IH. apply NoDup_keys_set, H.
Qed.

(* the keys of a dict after updates with the keys [l], one after the other *)
Definition add_keys (acc l : list string) : list string :=
  fold_left (fun acc x => if mem x acc then acc else acc ++ [x]) l acc.

Lemma keys_update {V} (src : list (string * V)) : forall d,
  keys (dict_update d src) = add_keys (keys d) (keys src).
Proof.
  unfold dict_update, add_keys. induction src as [|[k1 v1] r IH]; intros d.
  - reflexivity.
  - change (keys ((k1, v1) :: r)) with (k1 :: keys r). cbn [fold_left fst snd].
    rewrite IH. rewrite keys_set. reflexivity.
Qed.

Lemma add_keys_spec l : forall acc,
  add_keys acc l = acc ++ filter (fun x => negb (mem x acc)) (dedup_first l).
Proof.
  unfold add_keys. induction l as [|a r IH]; intros acc; cbn [fold_left dedup_first filter].
  - rewrite app_nil_r. reflexivity.
  - rewrite IH. destruct (mem a acc) eqn:M; cbn [negb].
    + f_equal. rewrite filter_filter. apply filter_ext. intros x.
      destruct (mem x acc) eqn:Mx; cbn [negb]; [symmetry; apply andb_false_r|].
      rewrite andb_true_r. destruct (String.eqb_spec x a); [congruence | reflexivity].
    + rewrite <- app_assoc. cbn [app]. f_equal. f_equal.
      rewrite filter_filter. apply filter_ext. intros x.
      rewrite mem_app. cbn [mem]. rewrite (String.eqb_sym a x).
      destruct (mem x acc), (String.eqb x a); reflexivity.
Qed.

Lemma class_members_cons b r : class_members (b :: r) = dict_update (class_members r) b.
Proof. unfold class_members. cbn [rev]. rewrite fold_left_app. reflexivity. Qed.

Theorem class_members_get mro k : dict_get k (class_members mro) = effective mro k.
Proof.
  induction mro as [|b r IH]; [reflexivity|].
  rewrite class_members_cons, dict_get_update, IH. reflexivity.
Qed.

Lemma class_members_NoDup mro : NoDup (keys (class_members mro)).
Proof.
  induction mro as [|b r IH]; [constructor|].
  rewrite class_members_cons. apply NoDup_keys_update, IH.
Qed.

Lemma keys_fold_update {V} (L : list (dict V)) : forall d,
  keys (fold_left dict_update L d) = add_keys (keys d) (flat_map keys L).
Proof.
  induction L as [|b r IH]; intros d; cbn [fold_left flat_map].
  - reflexivity.
  - rewrite IH, keys_update. symmetry. apply fold_left_app.
Qed.

Theorem class_members_keys mro : keys (class_members mro) = dedup_first (bases_first mro).
Proof.
  unfold class_members, bases_first. rewrite keys_fold_update, add_keys_spec.
  apply filter_all. reflexivity.
Qed.

Theorem class_members_In mro k m : In (k, m) (class_members mro) <-> effective mro k = Some m.
Proof.
  rewrite <- class_members_get. split.
  - apply In_dict_get, class_members_NoDup.
  - apply dict_get_In.
Qed.

Lemma effective_In mro k m : effective mro k = Some m -> exists d, In d mro /\ In (k, m) d.
Proof.
  induction mro as [|b r IH]; cbn [effective]; [discriminate|].
  destruct (lookup_last k b) as [w|] eqn:L.
  - intros H. inversion H; subst. exists b. split; [left; reflexivity | apply lookup_last_In, L].
  - intros H. destruct (IH H) as [d [A B]]. exists d. split; [right; exact A | exact B].
Qed.

(* The loop reads three lists off the member dict: the keys of the states
   marked first, of those marked default, and of all states.
   [keys_with f ms]: the keys under which [ms] holds a state with the flag [f],
   in the order of [ms].
   A slot ([b_first], [b_default]) is read as the list of at most one key,
   [olist]: "slot ++ marked keys" has two elements or more exactly when the
   loop raises.
   [state_descs] writes [desc_opt (Some m)] where the loop appends
   [desc_text s]: on a state it computes to that, and it is the form in which
   [names_exact] states the descriptions. *)
Definition flagged (f : sdata -> bool) (kv : string * member) : bool :=
  match snd kv with MState s => f s | MOther => false end.
Definition keys_with (f : sdata -> bool) (ms : dict member) : list string :=
  keys (filter (flagged f) ms).
Definition any_state (_ : sdata) : bool := true.
Definition state_descs (ms : dict member) : list string :=
  map (fun kv => desc_opt (Some (snd kv))) (filter (flagged any_state) ms).

Definition olist {A} (o : option A) : list A := match o with Some x => [x] | None => [] end.

Lemma olist_In {A} (o : option A) x : In x (olist o) <-> o = Some x.
Proof. destruct o as [y|]; cbn; split; [intros [<-|[]] | intros [= ->] | intros [] | discriminate]; auto. Qed.

Lemma keys_with_state f k s r :
  keys_with f ((k, MState s) :: r) = if f s then k :: keys_with f r else keys_with f r.
Proof. unfold keys_with. cbn [filter flagged snd]. destruct (f s); reflexivity. Qed.

(* one round of the loop on a state: the two slots [b_first], [b_default] are
   treated alike *)
Lemma build_loop_state k s r st :
  build_loop ((k, MState s) :: r) st =
  if s_first s && is_some (b_first st) then Err MultipleFirst
  else if s_default s && is_some (b_default st) then Err MultipleDefault
  else build_loop r {| b_first := if s_first s then Some k else b_first st;
                       b_default := if s_default s then Some k else b_default st;
                       b_names := b_names st ++ [k]; b_descs := b_descs st ++ [desc_text s] |}.
Proof.
  cbn [build_loop].
  destruct (s_first s && is_some (b_first st)), (s_default s), (is_some (b_default st)); reflexivity.
Qed.

(* a slot that is filled cannot take a second key *)
Lemma slot_full (b : bool) (o : option string) k l :
  b && is_some o = true -> 2 <= List.length (olist o ++ (if b then k :: l else l)).
Proof. destruct b, o; try discriminate. intros _. cbn. lia. Qed.

Lemma slot_step (b : bool) (o : option string) k l :
  b && is_some o = false ->
  olist (if b then Some k else o) ++ l = olist o ++ (if b then k :: l else l).
Proof. destruct b, o; try discriminate; reflexivity. Qed.

(* The loop runs through iff neither slot is asked to take a second key; the
   slots then hold the one marked key, if there is one. *)
Lemma build_loop_spec ms : forall st,
  match build_loop ms st with
  | Ok st' =>
      olist (b_first st') = olist (b_first st) ++ keys_with s_first ms /\
      olist (b_default st') = olist (b_default st) ++ keys_with s_default ms /\
      b_names st' = b_names st ++ keys_with any_state ms /\
      b_descs st' = b_descs st ++ state_descs ms
  | Err MultipleFirst => 2 <= List.length (olist (b_first st) ++ keys_with s_first ms)
  | Err MultipleDefault => 2 <= List.length (olist (b_default st) ++ keys_with s_default ms)
  | Err NoFirst => False
  end.
Proof.
  induction ms as [|[k [s|]] r IH]; intros st.
  - cbn. rewrite !app_nil_r. auto.
  - rewrite build_loop_state, !keys_with_state.
    destruct (s_first s && is_some (b_first st)) eqn:G1; [apply slot_full, G1|].
    destruct (s_default s && is_some (b_default st)) eqn:G2; [apply slot_full, G2|].
    match goal with |- context [build_loop r ?st1] => specialize (IH st1) end.
    cbn [b_first b_default b_names b_descs] in IH.
    rewrite (slot_step _ _ _ _ G1), (slot_step _ _ _ _ G2), <- !app_assoc in IH. exact IH.
  - exact (IH st).
Qed.

Definition init_bstate : bstate :=
  {| b_first := None; b_default := None; b_names := []; b_descs := [] |}.

Lemma build_states_spec mro :
  match build_states mro with
  | Ok r => [r_first r] = keys_with s_first (class_members mro) /\
            olist (r_default r) = keys_with s_default (class_members mro) /\
            r_names r = keys_with any_state (class_members mro) /\ r_descs r = state_descs (class_members mro)
  | Err NoFirst => [] = keys_with s_first (class_members mro)
  | Err MultipleFirst => 2 <= List.length (keys_with s_first (class_members mro))
  | Err MultipleDefault => 2 <= List.length (keys_with s_default (class_members mro))
  end.
Proof.
  unfold build_states. fold init_bstate.
  pose proof (build_loop_spec (class_members mro) init_bstate) as S.
  destruct (build_loop (class_members mro) init_bstate) as [st'|e].
  2:{ destruct e; [destruct S | exact S | exact S]. }
  cbn [init_bstate b_first b_default b_names b_descs olist app] in S.
  destruct S as (F & D & Nm & Ds).
  (* the slot b_first, read as a list, is the list of the keys marked first *)
  destruct (b_first st') as [f|]; cbn [olist] in F.
  - cbn [r_first r_default r_names r_descs]. split; [exact F|]. split; [exact D|]. split; [exact Nm | exact Ds].
  - exact F.
Qed.

Lemma keys_with_In f mro n :
  In n (keys_with f (class_members mro)) <-> exists s, eff_state mro n s /\ f s = true.
Proof.
  unfold keys_with, keys, eff_state. rewrite in_map_iff. split.
  - intros [[k [s|]] [E I]]; apply filter_In in I; destruct I as [I F]; [|discriminate].
    cbn [fst] in E. subst k. exists s. rewrite <- class_members_In. auto.
  - intros [s [E F]]. exists (n, MState s). split; [reflexivity|].
    apply filter_In. split; [apply class_members_In, E | exact F].
Qed.

Lemma keys_with_NoDup f mro : NoDup (keys_with f (class_members mro)).
Proof. apply NoDup_keys_filter, class_members_NoDup. Qed.

Lemma two_flagged f mro : 2 <= List.length (keys_with f (class_members mro)) ->
  exists n1 n2, n1 <> n2 /\ (exists s, eff_state mro n1 s /\ f s = true) /\
                            (exists s, eff_state mro n2 s /\ f s = true).
Proof.
  intros L. destruct (two_distinct _ (keys_with_NoDup f mro) L) as (n1 & n2 & N & I1 & I2).
  exists n1, n2. rewrite <- !keys_with_In. auto.
Qed.

Theorem build_err_sound mro e : build_states mro = Err e ->
  match e with
  | NoFirst => forall n, ~ first_in mro n
  | MultipleFirst => exists n1 n2, n1 <> n2 /\ first_in mro n1 /\ first_in mro n2
  | MultipleDefault => exists n1 n2, n1 <> n2 /\ default_in mro n1 /\ default_in mro n2
  end.
Proof.
  intros H. pose proof (build_states_spec mro) as S. rewrite H in S.
  destruct e; [|exact (two_flagged _ mro S) ..].
  intros n F. apply (keys_with_In s_first) in F. rewrite <- S in F. destruct F.
Qed.

Theorem build_ok_sound mro r : build_states mro = Ok r ->
  first_in mro (r_first r) /\ (forall n, first_in mro n -> n = r_first r) /\
  at_most_one_default mro /\
  match r_default r with
  | Some d => default_in mro d
  | None => forall n, ~ default_in mro n
  end.
Proof.
  intros H. pose proof (build_states_spec mro) as S. rewrite H in S.
  destruct S as (F & D & _).
  assert (Fi : forall n, first_in mro n <-> r_first r = n).
  { intros n. unfold first_in. rewrite <- (keys_with_In s_first), <- F. cbn. tauto. }
  assert (Di : forall n, default_in mro n <-> r_default r = Some n).
  { intros n. unfold default_in. rewrite <- (keys_with_In s_default), <- D. apply olist_In. }
  split; [apply Fi; reflexivity|]. split; [intros n Hn; symmetry; apply Fi, Hn|]. split.
  - intros n1 n2 H1 H2. apply Di in H1, H2. congruence.
  - destruct (r_default r) as [d|]; [apply Di; reflexivity|].
    intros n Hn. apply Di in Hn. discriminate.
Qed.

Theorem build_ok_iff mro :
  (exists r, build_states mro = Ok r) <-> exactly_one_first mro /\ at_most_one_default mro.
Proof.
  split.
  - intros [r H]. destruct (build_ok_sound mro r H) as (F & U & D & _).
    split; [|exact D]. exists (r_first r). split; [exact F | exact U].
  - intros [[n [F U]] D]. destruct (build_states mro) as [r|e] eqn:H; [eexists; reflexivity|].
    exfalso. pose proof (build_err_sound mro e H) as S. destruct e.
    + exact (S n F).
    + destruct S as [n1 [n2 (N & F1 & F2)]]. apply N. rewrite (U n1 F1), (U n2 F2). reflexivity.
    + destruct S as [n1 [n2 (N & D1 & D2)]]. apply N. apply D; assumption.
Qed.

(* the state keys of [l] and their descriptions, read off a dict [d] that
   holds what [l] holds *)
Lemma state_keys_filter (d l : dict member) :
  (forall kv, In kv l -> dict_get (fst kv) d = Some (snd kv)) ->
  keys_with any_state l = filter (fun k => is_state_opt (dict_get k d)) (keys l) /\
  state_descs l = map (fun k => desc_opt (dict_get k d)) (keys_with any_state l).
Proof.
  unfold keys_with, state_descs, keys.
  induction l as [|[k m] r IH]; intros H; [split; reflexivity|].
  destruct IH as [IH1 IH2]; [intros kv Hkv; apply H; right; exact Hkv|].
  pose proof (H (k, m) (or_introl eq_refl)) as Hk. cbn [fst snd] in Hk.
  cbn [filter map fst]. rewrite Hk.
  destruct m as [s|]; cbn [is_state_opt flagged snd any_state map fst]; [rewrite Hk|];
    split; f_equal; assumption.
Qed.

Theorem names_exact mro r : build_states mro = Ok r ->
  (forall n, In n (r_names r) <-> exists s, eff_state mro n s) /\
  NoDup (r_names r) /\
  r_names r = filter (fun n => is_state_opt (effective mro n)) (dedup_first (bases_first mro)) /\
  r_descs r = map (fun n => desc_opt (effective mro n)) (r_names r).
Proof.
  intros H. pose proof (build_states_spec mro) as S. rewrite H in S.
  destruct S as (_ & _ & -> & ->).
  destruct (state_keys_filter (class_members mro) (class_members mro)) as [K1 K2].
  { intros [k m] I. apply In_dict_get; [apply class_members_NoDup | exact I]. }
  split; [|split; [|split]].
  - intros n. rewrite keys_with_In. split.
    + intros (s & E & _). exists s. exact E.
    + intros [s E]. exists s. split; [exact E | reflexivity].
  - apply keys_with_NoDup.
  - rewrite K1, class_members_keys. apply filter_ext. intros k. rewrite class_members_get. reflexivity.
  - rewrite K2. apply map_ext. intros k. rewrite class_members_get. reflexivity.
Qed.

Corollary descs_aligned mro r : build_states mro = Ok r ->
  List.length (r_descs r) = List.length (r_names r) /\
  forall i, i < List.length (r_names r) ->
    nth i (r_descs r) "" = desc_opt (effective mro (nth i (r_names r) "")).
Proof.
  intros H. destruct (names_exact mro r H) as (_ & _ & _ & D). rewrite D. split.
  - apply map_length.
  - intros i Hi.
    rewrite (nth_indep _ "" (desc_opt (effective mro "")))
      by (rewrite map_length; exact Hi).
    apply (map_nth (fun n => desc_opt (effective mro n))).
Qed.

(* the namespace after the lines [p] holds, under every name, what the name
   denotes there *)
Definition ns_denotes reserved dicts (p : list (string * smember)) (ns : dict member) : Prop :=
  forall k, dict_get k ns = denotes reserved dicts (rev p) k.

Lemma ns_denotes_nil reserved dicts : ns_denotes reserved dicts [] [].
Proof. intros k. reflexivity. Qed.

(* every line of [b] can be executed, [p] being the lines above [b] *)
Definition lines_ok reserved dicts (p b : list (string * smember)) : Prop :=
  forall q k m r, b = q ++ (k, m) :: r -> entry_ok reserved dicts (p ++ q) m.

Lemma lines_ok_nil reserved dicts p : lines_ok reserved dicts p [].
Proof. intros [|x q] k m r E; discriminate. Qed.

Lemma lines_ok_cons reserved dicts p k m b :
  lines_ok reserved dicts p ((k, m) :: b) <->
  entry_ok reserved dicts p m /\ lines_ok reserved dicts (p ++ [(k, m)]) b.
Proof.
  split.
  - intros H. split.
    + rewrite <- (app_nil_r p). exact (H [] k m b eq_refl).
    + intros q k' m' r ->. rewrite <- app_assoc. exact (H ((k, m) :: q) k' m' r eq_refl).
  - intros [H0 H] [|x q] k' m' r E; inversion E; subst.
    + rewrite app_nil_r. exact H0.
    + specialize (H q k' m' r eq_refl). rewrite <- app_assoc in H. exact H.
Qed.

(* what a line that succeeds has evaluated to *)
Lemma eval_member_ok reserved dicts ns m v : eval_member reserved dicts ns m = Ok v ->
  match m with
  | SState d => exists s, construct reserved d = Ok s /\ v = MState s
  | SOther => v = MOther
  | SLocal k => dict_get k ns = Some v
  | SRef c k => class_attr dicts c k = Some v
  end.
Proof.
  destruct m as [d| |k|c k]; cbn [eval_member].
  - destruct (construct reserved d) as [s|e]; [|discriminate]. intros [= <-]. exists s. split; reflexivity.
  - intros [= <-]. reflexivity.
  - destruct (dict_get k ns); [|discriminate]. intros [= <-]. reflexivity.
  - destruct (class_attr dicts c k); [|discriminate]. intros [= <-]. reflexivity.
Qed.

Lemma ns_denotes_step reserved dicts p ns k m v :
  ns_denotes reserved dicts p ns -> eval_member reserved dicts ns m = Ok v ->
  ns_denotes reserved dicts (p ++ [(k, m)]) (dict_set k v ns).
Proof.
  intros H E k0. rewrite rev_unit. cbn [denotes]. rewrite dict_get_set.
  destruct (String.eqb k k0); [|apply H].
  apply eval_member_ok in E. destruct m as [d| |k2|c k2].
  - destruct E as (s & -> & ->). reflexivity.
  - subst v. reflexivity.
  - rewrite <- (H k2). symmetry. exact E.
  - symmetry. exact E.
Qed.

Lemma eval_member_ok_iff reserved dicts p ns m :
  ns_denotes reserved dicts p ns ->
  (exists v, eval_member reserved dicts ns m = Ok v) <-> entry_ok reserved dicts p m.
Proof.
  intros H. destruct m as [d| |k2|c k2]; cbn [eval_member entry_ok].
  - rewrite <- construct_ok_iff. split.
    + intros [v E]. destruct (construct reserved d) as [s|e]; [exists s; reflexivity | discriminate].
    + intros [s E]. rewrite E. eexists; reflexivity.
  - split; [trivial | intros _; eexists; reflexivity].
  - rewrite <- (H k2). destruct (dict_get k2 ns) as [v|].
    + split; [intros _; discriminate | intros _; exists v; reflexivity].
    + split; [intros [v E]; discriminate | intros N; contradiction].
  - destruct (class_attr dicts c k2) as [v|].
    + split; [intros _; discriminate | intros _; exists v; reflexivity].
    + split; [intros [v E]; discriminate | intros N; contradiction].
Qed.

(* a line fails with a decorator error or an unbound name, never with a
   __set_name__ error *)
Lemma eval_member_err reserved dicts ns m e :
  eval_member reserved dicts ns m = Err e -> e <> EAlias /\ e <> ENotStateMachine.
Proof.
  destruct m as [d| |k2|c k2]; cbn [eval_member].
  - pose proof (construct_cases reserved d) as C.
    destruct (construct reserved d) as [s|e']; intros [= <-]. destruct e'; try contradiction; split; discriminate.
  - discriminate.
  - destruct (dict_get k2 ns); intros [= <-]; split; discriminate.
  - destruct (class_attr dicts c k2); intros [= <-]; split; discriminate.
Qed.

Lemma eval_body_spec reserved dicts b : forall p ns0,
  ns_denotes reserved dicts p ns0 ->
  match eval_body reserved dicts b ns0 with
  | Ok ns => lines_ok reserved dicts p b /\ ns_denotes reserved dicts (p ++ b) ns
  | Err e => ~ lines_ok reserved dicts p b /\ e <> EAlias /\ e <> ENotStateMachine
  end.
Proof.
  induction b as [|[k1 m1] r IH]; intros p ns0 D; cbn [eval_body].
  - rewrite app_nil_r. split; [apply lines_ok_nil | exact D].
  - pose proof (eval_member_ok_iff reserved dicts p ns0 m1 D) as O.
    destruct (eval_member reserved dicts ns0 m1) as [v1|e1] eqn:E1.
    + assert (L1 : entry_ok reserved dicts p m1) by (apply O; exists v1; reflexivity).
      specialize (IH _ _ (ns_denotes_step reserved dicts p ns0 k1 m1 v1 D E1)).
      rewrite <- app_assoc in IH.
      destruct (eval_body reserved dicts r _) as [ns|e]; rewrite lines_ok_cons.
      * destruct IH as (A & B). split; [split; [exact L1 | exact A] | exact B].
      * split; [|apply IH]. intros [_ H]. exact (proj1 IH H).
    + rewrite lines_ok_cons, <- O. split; [|exact (eval_member_err _ _ _ _ _ E1)].
      intros [[v H] _]. discriminate.
Qed.

(* a class body run from the empty namespace goes through iff every line can be executed *)
Lemma eval_body_ok_iff reserved dicts b :
  (exists ns, eval_body reserved dicts b [] = Ok ns) <-> lines_ok reserved dicts [] b.
Proof.
  pose proof (eval_body_spec reserved dicts b [] [] (ns_denotes_nil reserved dicts)) as S.
  destruct (eval_body reserved dicts b []) as [ns|e].
  - split; [intros _; apply S | intros _; exists ns; reflexivity].
  - split; [intros [ns H]; discriminate | intros L; destruct (proj1 S L)].
Qed.

Lemma eval_body_NoDup reserved dicts b : forall ns0 ns,
  eval_body reserved dicts b ns0 = Ok ns -> NoDup (keys ns0) -> NoDup (keys ns).
Proof.
  induction b as [|[k m] r IH]; intros ns0 ns; cbn [eval_body].
  - intros [= <-] N. exact N.
  - destruct (eval_member reserved dicts ns0 m) as [v|e]; [|discriminate].
    intros E N. exact (IH _ _ E (NoDup_keys_set k v ns0 N)).
Qed.

Lemma eval_body_final reserved dicts b ns : eval_body reserved dicts b [] = Ok ns ->
  lines_ok reserved dicts [] b /\ NoDup (keys ns) /\
  forall k m, In (k, m) ns <-> denotes reserved dicts (rev b) k = Some m.
Proof.
  intros E. pose proof (eval_body_spec reserved dicts b [] [] (ns_denotes_nil reserved dicts)) as S.
  rewrite E in S. destruct S as (L & G). cbn [app] in G.
  pose proof (eval_body_NoDup reserved dicts b [] ns E (NoDup_nil _)) as N.
  split; [exact L|]. split; [exact N|]. intros k m. rewrite <- (G k).
  split; [apply In_dict_get, N | apply dict_get_In].
Qed.

Theorem direct_call {A K} (s : sdata) (args : list A) (kwargs : list (string * K)) :
  call_state s args kwargs = Err IllegalCall.
Proof. reflexivity. Qed.

Theorem set_name_ok_iff osm attr sname :
  set_name osm attr sname = Ok tt <-> attr = sname /\ osm = true.
Proof.
  unfold set_name. destruct (String.eqb_spec attr sname) as [E|E]; simpl.
  - destruct osm; simpl; split; [auto | auto | discriminate | intros [_ H]; discriminate].
  - split; [discriminate | intros [H _]; contradiction].
Qed.

Theorem set_name_err osm attr sname :
  (attr <> sname -> set_name osm attr sname = Err EAlias) /\
  (attr = sname -> osm = false -> set_name osm attr sname = Err ENotStateMachine).
Proof.
  unfold set_name. split.
  - intros H. destruct (String.eqb_spec attr sname); [contradiction | reflexivity].
  - intros E ->. destruct (String.eqb_spec attr sname); [reflexivity | contradiction].
Qed.

(* the verdict of __set_name__ over a namespace *)
Definition set_names_post (osm : bool) (ns : dict member) (res : result unit deferr) : Prop :=
  match res with
  | Ok _ => forall k s, In (k, MState s) ns -> k = s_name s /\ osm = true
  | Err EAlias => exists k s, In (k, MState s) ns /\ k <> s_name s
  | Err ENotStateMachine => osm = false /\ exists k s, In (k, MState s) ns
  | Err _ => False
  end.

(* past a binding that __set_name__ accepts, the verdict on the rest is the verdict on the whole *)
Lemma set_names_post_cons osm k m r res :
  (forall s, m = MState s -> k = s_name s /\ osm = true) ->
  set_names_post osm r res -> set_names_post osm ((k, m) :: r) res.
Proof.
  intros H. destruct res as [u|e]; cbn [set_names_post].
  - intros P k' s' [[= <- ->]|I]; [exact (H s' eq_refl) | exact (P k' s' I)].
  - destruct e as [|e| | |].
    + intros F. exact F.
    + intros F. exact F.
    + intros (k' & s' & I & N). exists k', s'. split; [right; exact I | exact N].
    + intros (O & k' & s' & I). split; [exact O|]. exists k', s'. right. exact I.
    + intros F. exact F.
Qed.

Lemma set_names_spec osm ns : set_names_post osm ns (set_names osm ns).
Proof.
  induction ns as [|[k [s|]] r IH]; cbn [set_names].
  - intros k s [].
  - unfold set_name. destruct (String.eqb_spec k (s_name s)) as [E|E]; cbn [negb].
    2:{ exists k, s. split; [left; reflexivity | exact E]. }
    destruct osm; cbn [negb].
    2:{ split; [reflexivity|]. exists k, s. left. reflexivity. }
    apply set_names_post_cons; [|exact IH]. intros s' [= <-]. split; [exact E | reflexivity].
  - apply set_names_post_cons; [discriminate | exact IH].
Qed.

(* [set_names] fails with one of the two __set_name__ errors only *)
Lemma set_names_fails osm ns e : set_names osm ns = Err e ->
  (e = EAlias /\ exists k s, In (k, MState s) ns /\ k <> s_name s) \/
  (e = ENotStateMachine /\ osm = false /\ exists k s, In (k, MState s) ns).
Proof.
  intros H. pose proof (set_names_spec osm ns) as S. rewrite H in S. cbn [set_names_post] in S.
  destruct e as [|e| | |].
  - destruct S.
  - destruct S.
  - left. split; [reflexivity | exact S].
  - right. split; [reflexivity | exact S].
  - destruct S.
Qed.

Lemma set_names_ok_iff osm ns :
  set_names osm ns = Ok tt <-> forall k s, In (k, MState s) ns -> k = s_name s /\ osm = true.
Proof.
  split.
  - intros H. pose proof (set_names_spec osm ns) as S. rewrite H in S. exact S.
  - intros H. destruct (set_names osm ns) as [[]|e] eqn:S; [reflexivity|]. exfalso.
    destruct (set_names_fails osm ns e S) as [(_ & k & s & I & N)|(_ & O & k & s & I)].
    + destruct (H k s I) as [E _]. exact (N E).
    + destruct (H k s I) as [_ T]. congruence.
Qed.

Lemma define_class_ok reserved dicts osm b ns : define_class reserved dicts osm b = Ok ns ->
  eval_body reserved dicts b [] = Ok ns /\ set_names osm ns = Ok tt.
Proof.
  unfold define_class. destruct (eval_body reserved dicts b []) as [ns'|e]; [|discriminate].
  destruct (set_names osm ns') as [[]|e] eqn:S; [|discriminate]. intros [= <-]. split; [reflexivity | exact S].
Qed.

Theorem define_ok_iff reserved dicts osm b :
  (exists ns, define_class reserved dicts osm b = Ok ns) <->
  (forall q k m r, b = q ++ (k, m) :: r -> entry_ok reserved dicts q m) /\
  (forall k s, binds_state reserved dicts b k s -> k = s_name s /\ osm = true).
Proof.
  unfold binds_state. split.
  - intros [ns H]. apply define_class_ok in H. destruct H as [E S].
    destruct (eval_body_final reserved dicts b ns E) as (L & _ & T). split; [exact L|].
    intros k s B. apply T in B. exact (proj1 (set_names_ok_iff _ _) S k s B).
  - intros [A B]. unfold define_class.
    (* A is [lines_ok reserved dicts [] b]: there [[] ++ q] computes to [q] *)
    destruct (proj2 (eval_body_ok_iff reserved dicts b) A) as [ns E]. rewrite E.
    destruct (eval_body_final reserved dicts b ns E) as (_ & _ & T).
    rewrite (proj2 (set_names_ok_iff osm ns)); [exists ns; reflexivity|].
    intros k s I. apply T in I. exact (B k s I).
Qed.

(* every decorated function of an accepted body, overridden later or not, has
   a free name and a legal signature *)
Corollary define_ok_decorated reserved dicts osm b ns :
  define_class reserved dicts osm b = Ok ns ->
  forall k d, In (k, SState d) b -> ~ In (d_fname d) reserved /\ ~ sig_faulty (d_params d).
Proof.
  intros D k d I.
  destruct (proj1 (define_ok_iff reserved dicts osm b) (ex_intro _ ns D)) as [A _].
  apply in_split in I. destruct I as [q [r E]]. exact (A q k (SState d) r E).
Qed.

(* the property's wording: a state bound under another name, or in a class
   that is not a StateMachine, makes the class statement raise -- for every
   binding of the state object, the first one or a later one *)
Theorem alias_owner_rejected reserved dicts osm b k s :
  binds_state reserved dicts b k s -> k <> s_name s \/ osm = false ->
  exists e, define_class reserved dicts osm b = Err e.
Proof.
  intros L H. destruct (define_class reserved dicts osm b) as [ns|e] eqn:D; [|exists e; reflexivity].
  exfalso. destruct (proj1 (define_ok_iff reserved dicts osm b) (ex_intro _ ns D)) as [_ X].
  destruct (X k s L) as [E1 E2]. destruct H; congruence.
Qed.

(* ... and with which exception, when every line of the body itself succeeded *)
Theorem alias_owner_error reserved dicts osm b ns e :
  eval_body reserved dicts b [] = Ok ns -> define_class reserved dicts osm b = Err e ->
  (e = EAlias /\ exists k s, binds_state reserved dicts b k s /\ k <> s_name s) \/
  (e = ENotStateMachine /\ osm = false /\ exists k s, binds_state reserved dicts b k s).
Proof.
  intros E D. unfold define_class in D. rewrite E in D.
  destruct (eval_body_final reserved dicts b ns E) as (_ & _ & T). unfold binds_state.
  destruct (set_names osm ns) as [[]|e'] eqn:S; [discriminate|]. injection D as ->.
  destruct (set_names_fails osm ns e S) as [(-> & k & s & I & N)|(-> & O & k & s & I)].
  - left. split; [reflexivity|]. exists k, s. split; [apply T, I | exact N].
  - right. split; [reflexivity|]. split; [exact O|]. exists k, s. apply T, I.
Qed.

(* the exception of a rejected class statement: InvalidStateName (alias) and
   TypeError (owner) come from __set_name__ only *)
Theorem define_err_kinds reserved dicts osm b e : define_class reserved dicts osm b = Err e ->
  (e = EAlias \/ e = ENotStateMachine) <-> exists ns, eval_body reserved dicts b [] = Ok ns.
Proof.
  unfold define_class. pose proof (eval_body_spec reserved dicts b [] [] (ns_denotes_nil reserved dicts)) as B.
  destruct (eval_body reserved dicts b []) as [ns|e'].
  - destruct (set_names osm ns) as [[]|e''] eqn:S; [discriminate|]. intros [= ->].
    split; [exists ns; reflexivity|]. intros _.
    destruct (set_names_fails osm ns e S) as [[-> _]|[-> _]].
    + left. reflexivity.
    + right. reflexivity.
  - intros [= ->]. destruct B as (_ & NA & NO). split.
    + intros [A|A]; [destruct (NA A) | destruct (NO A)].
    + intros [ns H]. discriminate.
Qed.

Lemma eval_body_app reserved dicts a : forall b ns0,
  eval_body reserved dicts (a ++ b) ns0 =
  match eval_body reserved dicts a ns0 with
  | Ok ns => eval_body reserved dicts b ns
  | Err e => Err e
  end.
Proof.
  induction a as [|[k m] r IH]; intros b ns0; cbn [app eval_body]; [reflexivity|].
  destruct (eval_member reserved dicts ns0 m); [apply IH | reflexivity].
Qed.

(* a decorated function with a colliding name or a faulty signature makes
   the class statement raise -- whatever the lines before it defined (legal
   states included), whatever the earlier classes hold, whatever follows *)
Theorem faulty_decorated_rejected reserved dicts osm pre k d post :
  In (d_fname d) reserved \/ sig_faulty (d_params d) ->
  exists e, define_class reserved dicts osm (pre ++ (k, SState d) :: post) = Err e.
Proof.
  intros F. destruct (define_class reserved dicts osm (pre ++ (k, SState d) :: post)) as [ns|e] eqn:D.
  - exfalso. destruct (define_ok_decorated reserved dicts osm _ ns D k d (in_elt _ _ _)). tauto.
  - exists e. reflexivity.
Qed.

(* .. and when the lines before it run through, with exactly the exception
   the decorator gives for THIS function (a function of d alone) *)
Theorem decorated_verdict_own reserved dicts osm pre ns k d post e :
  eval_body reserved dicts pre [] = Ok ns -> construct reserved d = Err e ->
  define_class reserved dicts osm (pre ++ (k, SState d) :: post) = Err e.
Proof.
  intros P C. unfold define_class. rewrite eval_body_app, P. cbn [eval_body eval_member].
  rewrite C. reflexivity.
Qed.

Lemma keys_rev {V} (l : list (string * V)) k : In k (keys (rev l)) <-> In k (keys l).
Proof. unfold keys. rewrite map_rev. symmetry. apply in_rev. Qed.

Lemma denotes_skip reserved dicts a b k : ~ In k (keys a) ->
  denotes reserved dicts (a ++ b) k = denotes reserved dicts b k.
Proof.
  induction a as [|[k1 m1] r IH]; intros N; cbn [app denotes]; [reflexivity|].
  destruct (String.eqb_spec k1 k) as [E|E].
  - exfalso. apply N. left. exact E.
  - apply IH. intros I. apply N. right. exact I.
Qed.

(* what the last binding of [k] in a body gives it *)
Lemma denotes_last reserved dicts pre k m post :
  ~ In k (keys post) ->
  denotes reserved dicts (rev (pre ++ (k, m) :: post)) k =
  match m with
  | SOther => Some MOther
  | SState d => match construct reserved d with Ok s => Some (MState s) | Err _ => None end
  | SRef c k2 => class_attr dicts c k2
  | SLocal k2 => denotes reserved dicts (rev pre) k2
  end.
Proof.
  intros N. rewrite rev_app_distr. cbn [rev]. rewrite <- app_assoc. cbn [app].
  rewrite (denotes_skip reserved dicts (rev post)) by (rewrite keys_rev; exact N).
  cbn [denotes]. rewrite String.eqb_refl. reflexivity.
Qed.

(*   @state def k(..) ... k2 = k   : the second name of the state object is
   rejected although the object has just been bound correctly under k *)
Theorem rebinding_local_rejected reserved dicts osm pre k d mid k2 post :
  ~ In k (keys mid) -> ~ In k2 (keys post) -> k2 <> d_fname d \/ osm = false ->
  exists e, define_class reserved dicts osm (pre ++ (k, SState d) :: mid ++ (k2, SLocal k) :: post) = Err e.
Proof.
  intros Nm Np H.
  set (b := pre ++ (k, SState d) :: mid ++ (k2, SLocal k) :: post).
  destruct (define_class reserved dicts osm b) as [ns|e] eqn:D; [|exists e; reflexivity].
  exfalso. pose proof (define_ok_decorated reserved dicts osm b ns D k d (in_elt _ _ _)) as K.
  apply construct_ok_iff in K. destruct K as [s K].
  rewrite <- (construct_name reserved d s K) in H.
  destruct (alias_owner_rejected reserved dicts osm b k2 s) as [e E]; [|exact H | congruence].
  unfold binds_state, b. rewrite app_comm_cons, app_assoc, denotes_last by exact Np.
  rewrite denotes_last by exact Nm. rewrite K. reflexivity.
Qed.

(*   k = C_c.__dict__[k0]  where that is a state: rejected unless k is the
   state's own name and the class is a StateMachine *)
Theorem rebinding_from_class_rejected reserved dicts osm pre k c k0 s post :
  class_attr dicts c k0 = Some (MState s) -> ~ In k (keys post) ->
  k <> s_name s \/ osm = false ->
  exists e, define_class reserved dicts osm (pre ++ (k, SRef c k0) :: post) = Err e.
Proof.
  intros C Np H. apply (alias_owner_rejected reserved dicts osm _ k s); [|exact H].
  unfold binds_state. rewrite denotes_last by exact Np. exact C.
Qed.

Lemma lookup_last_others k (extra : list string) :
  ~ In k extra -> lookup_last k (map (fun x => (x, MOther)) extra) = None.
Proof.
  induction extra as [|x r IH]; intros N; cbn [map lookup_last]; [reflexivity|].
  rewrite IH by (intros I; apply N; right; exact I).
  destruct (String.eqb_spec x k) as [E|E]; [|reflexivity]. exfalso. apply N. left. exact E.
Qed.

(*   @<decorator> def k(..)   (not rebound below)  in an accepted class body:
   attribute lookup of k on every class whose most derived class this is (any
   bases [rest]; [extra] are the non-state keys setattr adds to the __dict__)
   finds exactly the state the decorator expression gives for this function,
   and that state is called k *)
Lemma decorated_state_effective reserved dicts osm pre k d post ns extra rest :
  define_class reserved dicts osm (pre ++ (k, SState d) :: post) = Ok ns ->
  ~ In k (keys post) -> ~ In k extra ->
  exists s, construct reserved d = Ok s /\ s_name s = k /\
            eff_state ((ns ++ map (fun x => (x, MOther)) extra) :: rest) k s.
Proof.
  intros D Np Ne. pose proof (define_ok_decorated _ _ _ _ _ D k d (in_elt _ _ _)) as K.
  apply construct_ok_iff in K. destruct K as [s K]. exists s. split; [exact K|].
  apply define_class_ok in D. destruct D as [E S].
  destruct (eval_body_final _ _ _ _ E) as (_ & N & T).
  assert (I : In (k, MState s) ns) by (apply T; rewrite denotes_last, K by exact Np; reflexivity).
  split; [symmetry; exact (proj1 (proj1 (set_names_ok_iff _ _) S k s I))|].
  unfold eff_state. cbn [effective].
  rewrite lookup_last_app, (lookup_last_others k extra Ne), (lookup_last_dict_get ns k N),
    (In_dict_get ns k _ N I). reflexivity.
Qed.

(* .. and therefore the state counts as first / as default state at
   instantiation iff the source marks it so -- whichever spelling of the
   decorator carries the mark *)
Theorem first_is_marked reserved dicts osm pre k d post ns extra rest :
  define_class reserved dicts osm (pre ++ (k, SState d) :: post) = Ok ns ->
  ~ In k (keys post) -> ~ In k extra ->
  (first_in ((ns ++ map (fun x => (x, MOther)) extra) :: rest) k <-> marked_first (d_deco d) = true) /\
  (default_in ((ns ++ map (fun x => (x, MOther)) extra) :: rest) k <-> marked_default (d_deco d) = true) /\
  exists s, eff_state ((ns ++ map (fun x => (x, MOther)) extra) :: rest) k s /\
            s_name s = k /\ s_desc s = d_doc d.
Proof.
  intros D Np Ne.
  destruct (decorated_state_effective reserved dicts osm pre k d post ns extra rest D Np Ne) as (s & K & Nm & Eff).
  destruct (marks_kept reserved d s K) as (F1 & _ & F3 & _ & _ & F6).
  (* k is this one state, so a flag holds of "some" state under k iff it holds of s *)
  set (mro := _ :: rest) in *.
  assert (U : forall f : sdata -> bool, (exists s', eff_state mro k s' /\ f s' = true) <-> f s = true).
  { intros f. split; [|eauto]. intros (s' & E1 & E2). unfold eff_state in *. congruence. }
  unfold first_in, default_in. rewrite <- F1, <- F3.
  split; [apply U|]. split; [apply U|]. exists s. split; [exact Eff|]. split; [exact Nm | exact F6].
Qed.

(* a function the most derived class marks first is found: never NoFirstStateError *)
Corollary marked_first_found reserved dicts osm pre k d post ns extra rest :
  define_class reserved dicts osm (pre ++ (k, SState d) :: post) = Ok ns ->
  ~ In k (keys post) -> ~ In k extra -> marked_first (d_deco d) = true ->
  build_states ((ns ++ map (fun x => (x, MOther)) extra) :: rest) <> Err NoFirst.
Proof.
  intros D Np Ne M H.
  destruct (first_is_marked reserved dicts osm pre k d post ns extra rest D Np Ne) as (F & _).
  exact (build_err_sound _ _ H k (proj2 F M)).
Qed.

(* two different functions the class body marks first -- each with any
   spelling -- make the class impossible to instantiate *)
Corollary two_marked_first_rejected reserved dicts osm body ns extra rest pre1 k1 d1 post1 pre2 k2 d2 post2 :
  define_class reserved dicts osm body = Ok ns ->
  body = pre1 ++ (k1, SState d1) :: post1 -> ~ In k1 (keys post1) ->
  body = pre2 ++ (k2, SState d2) :: post2 -> ~ In k2 (keys post2) ->
  k1 <> k2 -> ~ In k1 extra -> ~ In k2 extra ->
  marked_first (d_deco d1) = true -> marked_first (d_deco d2) = true ->
  exists e, build_states ((ns ++ map (fun x => (x, MOther)) extra) :: rest) = Err e /\ e <> NoFirst.
Proof.
  intros D B1 N1 B2 N2 Nk E1 E2 M1 M2.
  pose proof D as D1. rewrite B1 in D1. pose proof D as D2. rewrite B2 in D2.
  destruct (first_is_marked reserved dicts osm pre1 k1 d1 post1 ns extra rest D1 N1 E1) as (F1 & _).
  destruct (first_is_marked reserved dicts osm pre2 k2 d2 post2 ns extra rest D2 N2 E2) as (F2 & _).
  apply F1 in M1. apply F2 in M2.
  destruct (build_states ((ns ++ map (fun x => (x, MOther)) extra) :: rest)) as [r|e] eqn:Bd.
  - exfalso. destruct (build_ok_sound _ r Bd) as (_ & U & _).
    apply Nk. rewrite (U k1 M1), (U k2 M2). reflexivity.
  - exists e. split; [reflexivity|]. intros ->. exact (build_err_sound _ _ Bd k1 M1).
Qed.

Definition flags_from (cs : list classdef) (known : list bool) : list bool :=
  fold_left (fun kn c => kn ++ [is_sm kn (c_bases c)]) cs known.

Lemma sm_flags_from cs : sm_flags cs = flags_from cs [].
Proof. reflexivity. Qed.

Definition class_dict (ns : dict member) (c : classdef) : dict member :=
  ns ++ map (fun k => (k, MOther)) (c_extra c).

Lemma flags_from_known cs : forall known i, i < List.length known ->
  nth i (flags_from cs known) false = nth i known false.
Proof.
  unfold flags_from. induction cs as [|c r IH]; intros known i Hi; cbn [fold_left]; [reflexivity|].
  rewrite IH by (rewrite app_length; cbn; lia). apply app_nth1. exact Hi.
Qed.

Lemma flags_from_head c r known :
  nth (List.length known) (flags_from (c :: r) known) false = is_sm known (c_bases c).
Proof.
  change (flags_from (c :: r) known) with (flags_from r (known ++ [is_sm known (c_bases c)])).
  rewrite flags_from_known by (rewrite app_length; cbn; lia).
  rewrite app_nth2, Nat.sub_diag by lia. reflexivity.
Qed.

(* the first classes of [cs] -- as many as [news] is long --, defined after the
   classes [known] / [dicts], are accepted and leave the dicts [news] *)
Definition accepted reserved (cs : list classdef) known dicts (news : list (dict member)) : Prop :=
  forall i c, i < List.length news -> nth_error cs i = Some c ->
    exists ns, define_class reserved (dicts ++ firstn i news)
                 (nth (List.length known + i) (flags_from cs known) false) (c_body c) = Ok ns /\
               nth_error news i = Some (class_dict ns c).

Lemma accepted_nil reserved cs known dicts : accepted reserved cs known dicts [].
Proof. intros i c Hi. inversion Hi. Qed.

Lemma accepted_cons reserved c r known dicts ns news :
  define_class reserved dicts (is_sm known (c_bases c)) (c_body c) = Ok ns ->
  accepted reserved r (known ++ [is_sm known (c_bases c)]) (dicts ++ [class_dict ns c]) news ->
  accepted reserved (c :: r) known dicts (class_dict ns c :: news).
Proof.
  intros D A [|i] c' Hi H; cbn [nth_error firstn] in *.
  - injection H as <-. exists ns. rewrite Nat.add_0_r, flags_from_head, app_nil_r. split; [exact D | reflexivity].
  - destruct (A i c' (proj2 (Nat.succ_lt_mono _ _) Hi) H) as [ns' [D' N']]. exists ns'.
    rewrite app_length, <- app_assoc, <- Nat.add_assoc in D'. split; [exact D' | exact N'].
Qed.

Lemma define_from_spec reserved cs : forall idx known dicts,
  match define_from reserved idx cs known dicts with
  | Ok ds =>
      exists news, ds = dicts ++ news /\ List.length news = List.length cs /\
                   accepted reserved cs known dicts news
  | Err (j, e) =>
      exists news c, j = idx + List.length news /\ nth_error cs (List.length news) = Some c /\
        accepted reserved cs known dicts news /\
        define_class reserved (dicts ++ news)
          (nth (List.length known + List.length news) (flags_from cs known) false) (c_body c) = Err e
  end.
Proof.
  induction cs as [|c r IH]; intros idx known dicts; cbn [define_from].
  - exists []. rewrite app_nil_r. split; [reflexivity|]. split; [reflexivity | apply accepted_nil].
  - destruct (define_class reserved dicts (is_sm known (c_bases c)) (c_body c)) as [ns|e] eqn:D.
    + specialize (IH (S idx) (known ++ [is_sm known (c_bases c)]) (dicts ++ [class_dict ns c])).
      fold (class_dict ns c).
      destruct (define_from reserved (S idx) r _ _) as [ds|[j e]].
      * destruct IH as (news & -> & L & A). exists (class_dict ns c :: news).
        rewrite <- app_assoc. cbn [List.length].
        split; [reflexivity|]. split; [f_equal; exact L | exact (accepted_cons _ _ _ _ _ _ _ D A)].
      * destruct IH as (news & c' & -> & N & A & D'). exists (class_dict ns c :: news), c'.
        rewrite app_length, <- app_assoc, <- Nat.add_assoc in D'. cbn [List.length].
        rewrite Nat.add_succ_r.
        split; [reflexivity|]. split; [exact N|]. split; [exact (accepted_cons _ _ _ _ _ _ _ D A) | exact D'].
    + exists [], c. rewrite !Nat.add_0_r, flags_from_head, app_nil_r.
      split; [reflexivity|]. split; [reflexivity|]. split; [apply accepted_nil | exact D].
Qed.

(* a module is accepted iff every class statement is, each judged with
   issubclass(owner, StateMachine) computed from its bases and with the
   __dict__ of the classes before it; otherwise the first failing class
   statement raises *)
Theorem define_all_spec reserved cs :
  match define_all reserved cs with
  | Ok ds =>
      List.length ds = List.length cs /\
      forall i c, nth_error cs i = Some c ->
        exists ns, define_class reserved (firstn i ds) (nth i (sm_flags cs) false) (c_body c) = Ok ns /\
                   nth_error ds i = Some (ns ++ map (fun k => (k, MOther)) (c_extra c))
  | Err (j, e) =>
      exists c ds, nth_error cs j = Some c /\ List.length ds = j /\
        define_class reserved ds (nth j (sm_flags cs) false) (c_body c) = Err e /\
        forall i' c', i' < j -> nth_error cs i' = Some c' ->
          exists ns, define_class reserved (firstn i' ds) (nth i' (sm_flags cs) false) (c_body c') = Ok ns /\
                     nth_error ds i' = Some (ns ++ map (fun k => (k, MOther)) (c_extra c'))
  end.
Proof.
  unfold define_all. rewrite sm_flags_from. pose proof (define_from_spec reserved cs 0 [] []) as S.
  destruct (define_from reserved 0 cs [] []) as [ds|[j e]].
  - destruct S as (news & -> & L & A). split; [exact L|]. intros i c H. apply A; [|exact H].
    rewrite L. apply nth_error_Some. congruence.
  - destruct S as (news & c & -> & N & A & D). exists c, news. auto.
Qed.

(* in an accepted module every class __dict__ that holds a state object --
   however the object got there -- holds it under the state's own name, and
   the class is a StateMachine *)
Theorem define_all_wf reserved cs ds : define_all reserved cs = Ok ds ->
  forall i d k s, nth_error ds i = Some d -> In (k, MState s) d ->
    k = s_name s /\ nth i (sm_flags cs) false = true.
Proof.
  intros D i d k s N I. pose proof (define_all_spec reserved cs) as S. rewrite D in S.
  destruct S as [L P].
  assert (Hi : i < List.length cs) by (rewrite <- L; apply nth_error_Some; congruence).
  destruct (nth_error cs i) as [c|] eqn:C; [|apply nth_error_None in C; lia].
  destruct (P i c C) as [ns [Dc Nc]]. rewrite N in Nc. injection Nc as ->.
  apply in_app_or in I. destruct I as [I|I].
  - apply define_class_ok in Dc. exact (proj1 (set_names_ok_iff _ _) (proj2 Dc) k s I).
  - apply in_map_iff in I. destruct I as [x [X _]]. discriminate.
Qed.

(* in an accepted module EVERY decorated function of EVERY class has a free
   name and a legal signature *)
Theorem module_decorated_legal reserved cs ds : define_all reserved cs = Ok ds ->
  forall c k d, In c cs -> In (k, SState d) (c_body c) ->
    ~ In (d_fname d) reserved /\ ~ sig_faulty (d_params d).
Proof.
  intros D c k d I J. pose proof (define_all_spec reserved cs) as S. rewrite D in S.
  destruct S as [_ P]. apply In_nth_error in I. destruct I as [i I].
  destruct (P i c I) as [ns [Dc _]].
  exact (define_ok_decorated reserved _ _ _ ns Dc k d J).
Qed.

Definition all_states (P : sdata -> Prop) (d : dict member) : Prop :=
  forall k s, In (k, MState s) d -> P s.

(* a property of all states the decorators create holds of all states a class
   table holds: the others are taken from the namespace or from earlier classes *)
Lemma eval_body_all reserved dicts (P : sdata -> Prop) :
  (forall d s, construct reserved d = Ok s -> P s) ->
  (forall d, In d dicts -> all_states P d) ->
  forall b ns0 ns, all_states P ns0 -> eval_body reserved dicts b ns0 = Ok ns -> all_states P ns.
Proof.
  intros HC HD. induction b as [|[k m] r IH]; intros ns0 ns H0; cbn [eval_body].
  - intros E. inversion E; subst. exact H0.
  - destruct (eval_member reserved dicts ns0 m) as [v|e] eqn:EM; [|discriminate].
    apply IH. intros k' s' I. apply In_dict_set in I. destruct I as [[_ E]|I]; [|exact (H0 k' s' I)].
    subst v. apply eval_member_ok in EM. destruct m as [d| |k2|c k2].
    + destruct EM as (s & C & [= <-]). exact (HC d s' C).
    + discriminate.
    + apply dict_get_In in EM. exact (H0 k2 s' EM).
    + unfold class_attr in EM. destruct (nth_error dicts c) as [d|] eqn:N; [|discriminate].
      apply dict_get_In in EM. apply nth_error_In in N. exact (HD d N k2 s' EM).
Qed.

Lemma define_from_all reserved (P : sdata -> Prop) :
  (forall d s, construct reserved d = Ok s -> P s) ->
  forall cs idx known dicts ds,
  (forall d, In d dicts -> all_states P d) ->
  define_from reserved idx cs known dicts = Ok ds ->
  forall d, In d ds -> all_states P d.
Proof.
  intros HC. induction cs as [|c r IH]; intros idx known dicts ds HD; cbn [define_from].
  - intros E. inversion E; subst. exact HD.
  - destruct (define_class reserved dicts _ (c_body c)) as [ns|e] eqn:D; [|discriminate].
    apply define_class_ok in D. destruct D as [EB _].
    apply IH. intros d I. apply in_app_or in I. destruct I as [I|[I|[]]]; [exact (HD d I)|]. subst d.
    intros k s J. apply in_app_or in J. destruct J as [J|J].
    + refine (eval_body_all reserved dicts P HC HD _ [] ns _ EB k s J). intros k' s' [].
    + apply in_map_iff in J. destruct J as [x [X _]]. discriminate.
Qed.

Theorem define_all_names_free reserved cs ds : define_all reserved cs = Ok ds ->
  forall d k s, In d ds -> In (k, MState s) d -> k = s_name s /\ ~ In k reserved.
Proof.
  intros D d k s I J.
  assert (N : ~ In (s_name s) reserved).
  { refine (define_from_all reserved (fun s => ~ In (s_name s) reserved) _ cs 0 [] [] ds _ D d I k s J).
    - intros d0 s0 C. rewrite (construct_name reserved d0 s0 C).
      exact (proj1 (proj1 (construct_ok_iff reserved d0) (ex_intro _ s0 C))).
    - intros d0 []. }
  apply In_nth_error in I. destruct I as [i I].
  destruct (define_all_wf reserved cs ds D i d k s I J) as [E _]. split; [exact E|]. rewrite E. exact N.
Qed.

(* the two attribute names instantiation sets on the class *)
Definition pubkeys : list string := ["state_names"; "state_descriptions"].

Lemma pubkeys_false k : mem k pubkeys = false <-> k <> "state_names" /\ k <> "state_descriptions".
Proof.
  rewrite mem_false. cbn [pubkeys In]. split.
  - intros H. split; intros E; apply H; auto.
  - intros [A B] [E|[E|[]]]; congruence.
Qed.

(* [published_free] decided, for a concrete class table *)
Definition published_freeb (dicts : list (dict member)) : bool :=
  forallb (forallb (fun kv => match snd kv with MState _ => negb (mem (fst kv) pubkeys) | MOther => true end))
          dicts.

Lemma published_freeb_sound dicts : published_freeb dicts = true -> published_free dicts.
Proof.
  intros H d k s I J. apply pubkeys_false.
  pose proof (proj1 (forallb_forall _ _) (proj1 (forallb_forall _ _) H d I) (k, MState s) J) as M.
  cbn [snd fst] in M. destruct (mem k pubkeys); [discriminate | reflexivity].
Qed.

(* a dict without those two keys *)
Definition strip {V} (d : dict V) : dict V :=
  filter (fun kv => negb (mem (fst kv) pubkeys)) d.

Lemma strip_cons {V} k (v : V) d :
  strip ((k, v) :: d) = if mem k pubkeys then strip d else (k, v) :: strip d.
Proof. unfold strip. cbn [filter fst]. destruct (mem k pubkeys); reflexivity. Qed.

Lemma strip_set {V} k (v : V) d :
  strip (dict_set k v d) = if mem k pubkeys then strip d else dict_set k v (strip d).
Proof.
  induction d as [|[k1 v1] r IH]; cbn [dict_set].
  - rewrite strip_cons. destruct (mem k pubkeys); reflexivity.
  - destruct (String.eqb_spec k1 k) as [->|E]; rewrite !strip_cons.
    + destruct (mem k pubkeys); [reflexivity|]. cbn [dict_set]. rewrite String.eqb_refl. reflexivity.
    + rewrite IH. destruct (mem k pubkeys), (mem k1 pubkeys); try reflexivity.
      cbn [dict_set]. destruct (String.eqb_spec k1 k); [contradiction | reflexivity].
Qed.

Lemma strip_update {V} (src : list (string * V)) : forall d,
  strip (dict_update d src) = dict_update (strip d) (strip src).
Proof.
  unfold dict_update. induction src as [|[k v] r IH]; intros d; cbn [fold_left fst snd].
  - reflexivity.
  - rewrite IH, strip_cons, strip_set. destruct (mem k pubkeys); reflexivity.
Qed.

Lemma strip_class_members mro : strip (class_members mro) = class_members (map strip mro).
Proof.
  induction mro as [|b r IH]; [reflexivity|].
  cbn [map]. rewrite !class_members_cons, strip_update, IH. reflexivity.
Qed.

Lemma strip_publish (d : dict member) : strip (publish_class_attrs d) = strip d.
Proof. unfold publish_class_attrs. rewrite !strip_set. reflexivity. Qed.

Lemma publish_states (d : dict member) k s : In (k, MState s) (publish_class_attrs d) -> In (k, MState s) d.
Proof.
  unfold publish_class_attrs. intros H.
  apply In_dict_set in H. destruct H as [[_ H]|H]; [discriminate|].
  apply In_dict_set in H. destruct H as [[_ H]|H]; [discriminate | exact H].
Qed.

(* the loop of _build_states skips non-states, so dropping the two keys
   changes nothing as long as no state sits under them: what
   [published_free] supplies *)
Lemma build_loop_strip ms :
  (forall k s, In (k, MState s) ms -> mem k pubkeys = false) ->
  forall st, build_loop (strip ms) st = build_loop ms st.
Proof.
  induction ms as [|[k m] r IH]; intros H st; [reflexivity|].
  assert (Hr : forall k s, In (k, MState s) r -> mem k pubkeys = false)
    by (intros k' s' I; apply (H k' s'); right; exact I).
  rewrite strip_cons. destruct m as [s|].
  - rewrite (H k s) by (left; reflexivity). cbn [build_loop].
    rewrite !(IH Hr). reflexivity.
  - destruct (mem k pubkeys); cbn [build_loop]; apply (IH Hr).
Qed.

Lemma build_states_strip mro :
  (forall d k s, In d mro -> In (k, MState s) d -> mem k pubkeys = false) ->
  build_states mro = build_states (map strip mro).
Proof.
  intros H. unfold build_states. rewrite <- strip_class_members, build_loop_strip; [reflexivity|].
  intros k s I. apply class_members_In, effective_In in I. destruct I as [d [A B]]. exact (H d k s A B).
Qed.

(* two class tables that agree on everything but the two published keys *)
Definition same_but_published (a b : list (dict member)) : Prop :=
  forall i, strip (nth i b []) = strip (nth i a []).

Lemma instantiate_same a b mro :
  same_but_published a b -> published_free a -> published_free b ->
  instantiate b mro = instantiate a mro.
Proof.
  intros S Fa Fb. unfold instantiate.
  assert (G : forall t, published_free t ->
            forall d k s, In d (map (fun i => nth i t []) mro) -> In (k, MState s) d -> mem k pubkeys = false).
  { intros t Ft d k s I J. apply in_map_iff in I. destruct I as [i [E _]]. subst d.
    destruct (nth_in_or_default i t []) as [N|N].
    - apply pubkeys_false. exact (Ft _ k s N J).
    - rewrite N in J. destruct J. }
  rewrite (build_states_strip _ (G b Fb)), (build_states_strip _ (G a Fa)).
  f_equal. rewrite !map_map. apply map_ext. intros i. apply S.
Qed.

Lemma update_nth_strip (l : list (dict member)) : forall c i,
  strip (nth i (update_nth c publish_class_attrs l) []) = strip (nth i l []).
Proof.
  induction l as [|x r IH]; intros c i; cbn [update_nth]; [reflexivity|].
  destruct c as [|c]; destruct i as [|i]; cbn [nth]; try reflexivity.
  - apply strip_publish.
  - apply IH.
Qed.

Lemma update_nth_In {A} (f : A -> A) (l : list A) : forall c x,
  In x (update_nth c f l) -> In x l \/ exists y, In y l /\ x = f y.
Proof.
  induction l as [|a r IH]; intros c x; cbn [update_nth]; [intros []|].
  destruct c as [|c].
  - intros [H|H]; [right; exists a; split; [left; reflexivity | symmetry; exact H] | left; right; exact H].
  - intros [H|H]; [left; left; exact H|].
    destruct (IH c x H) as [A0|[y [A0 B0]]]; [left; right; exact A0 | right; exists y; split; [right; exact A0 | exact B0]].
Qed.

Lemma update_nth_free l c : published_free l -> published_free (update_nth c publish_class_attrs l).
Proof.
  intros F d k s I J. apply update_nth_In in I. destruct I as [I|[y [I E]]].
  - exact (F d k s I J).
  - subst d. apply publish_states in J. exact (F y k s I J).
Qed.

(* The invariant of a history over the class table [dicts]: the table is as it
   was, up to the two published keys, which hold no state. *)
Definition table_kept (dicts : list (dict member)) (w : world) : Prop :=
  same_but_published dicts (w_dicts w) /\ published_free (w_dicts w).

Lemma step_invariant dicts w ev : table_kept dicts w -> table_kept dicts (fst (step w ev)).
Proof.
  intros [S F]. destruct ev as [mro cname|key v]; cbn [step]; [|split; assumption].
  destruct (instantiate (w_dicts w) mro) as [r|e]; cbn [fst]; [|split; assumption].
  destruct mro as [|c mro']; [split; assumption|]. split; cbn [w_dicts].
  - intros i. rewrite update_nth_strip. apply S.
  - apply update_nth_free, F.
Qed.

Lemma append_inv_head (p a b : string) : (p ++ a = p ++ b)%string -> a = b.
Proof.
  induction p as [|c p IH]; cbn [append]; [auto|].
  intros H. inversion H. apply IH. assumption.
Qed.

Lemma topics_differ cname : topic cname "state_names" <> topic cname "state_descriptions".
Proof.
  unfold topic. intros H. apply append_inv_head, append_inv_head, append_inv_head in H. discriminate.
Qed.

Lemma dict_set_two {V} k1 k2 (v1 v2 : V) d : k1 <> k2 ->
  let d' := dict_set k1 v1 (dict_set k2 v2 d) in
  dict_get k1 d' = Some v1 /\ dict_get k2 d' = Some v2 /\
  forall k, k <> k1 -> k <> k2 -> dict_get k d' = dict_get k d.
Proof.
  intros N d'. unfold d'. rewrite !dict_get_set, !String.eqb_refl, (proj2 (String.eqb_neq k1 k2) N).
  repeat split. intros k A B. rewrite !dict_get_set.
  apply not_eq_sym, String.eqb_neq in A, B. rewrite A, B. reflexivity.
Qed.

(* setup_tunables writes the lists of the machine onto its two topics,
   whatever they held (both tunables have writeDefault); no other topic changes *)
Theorem bind_overwrites nt cname r :
  dict_get (topic cname "state_names") (bind_machine nt cname r) = Some (r_names r) /\
  dict_get (topic cname "state_descriptions") (bind_machine nt cname r) = Some (r_descs r) /\
  forall key, key <> topic cname "state_names" -> key <> topic cname "state_descriptions" ->
    dict_get key (bind_machine nt cname r) = dict_get key nt.
Proof. exact (dict_set_two _ _ (r_names r) (r_descs r) nt (topics_differ cname)). Qed.

Lemma step_inst_outcome dicts w mro cname :
  table_kept dicts w -> published_free dicts ->
  snd (step w (EInst mro cname)) = class_outcome dicts mro.
Proof.
  intros [S Fw] F. unfold class_outcome. cbn [step].
  rewrite (instantiate_same dicts (w_dicts w) mro S F Fw).
  destruct (instantiate dicts mro) as [r|e]; cbn [snd]; [|reflexivity].
  destruct (bind_overwrites (w_nt w) cname r) as (A & B & _).
  unfold read_tunable. rewrite A, B. reflexivity.
Qed.

Lemma run_history_nth dicts h : forall w k mro cname,
  table_kept dicts w -> published_free dicts ->
  nth_error h k = Some (EInst mro cname) ->
  nth_error (run_history w h) k = Some (class_outcome dicts mro).
Proof.
  induction h as [|ev r IH]; intros w k mro cname T F N; [destruct k; discriminate|].
  cbn [run_history]. pose proof (step_invariant dicts w ev T) as T'.
  destruct (step w ev) as [w' o] eqn:St. destruct k as [|k]; cbn [nth_error] in N |- *.
  - injection N as ->. f_equal.
    change o with (snd (w', o)). rewrite <- St. apply step_inst_outcome; assumption.
  - exact (IH w' k mro cname T' F N).
Qed.

(* The verdict (and the published lists) of attempt k is that of its class:
   whatever was instantiated, bound or published before -- successfully or
   not, the same class or another, any number of times -- and whatever the
   topics held. *)
Theorem history_independent dicts nt h k mro cname :
  published_free dicts ->
  nth_error h k = Some (EInst mro cname) ->
  nth_error (run_history {| w_dicts := dicts; w_nt := nt |} h) k = Some (class_outcome dicts mro).
Proof.
  intros F N. apply (run_history_nth dicts h _ k mro cname); try assumption.
  split; [intros i; reflexivity | exact F].
Qed.

(* .. so attempt k succeeds iff the class has exactly one first state and at
   most one default state *)
Theorem history_verdict_iff dicts nt h k mro cname :
  published_free dicts ->
  nth_error h k = Some (EInst mro cname) ->
  ((exists r names descs,
      nth_error (run_history {| w_dicts := dicts; w_nt := nt |} h) k = Some (OBound r names descs)) <->
   exactly_one_first (bodies_of dicts mro) /\ at_most_one_default (bodies_of dicts mro)).
Proof.
  intros F N. rewrite (history_independent dicts nt h k mro cname F N).
  unfold class_outcome, instantiate. fold (bodies_of dicts mro).
  rewrite <- (build_ok_iff (bodies_of dicts mro)). split.
  - intros (r & names & descs & H). destruct (build_states (bodies_of dicts mro)) as [r'|e]; [|discriminate].
    exists r'. reflexivity.
  - intros [r H]. rewrite H. exists r, (r_names r), (r_descs r). reflexivity.
Qed.

Theorem failed_attempt_no_effect w mro cname w' e :
  step w (EInst mro cname) = (w', ORaised e) -> w' = w.
Proof.
  cbn [step]. destruct (instantiate (w_dicts w) mro); intros H; inversion H; reflexivity.
Qed.

(* the classes of an accepted module, instantiated and bound in any order,
   any number of times *)
Theorem history_module reserved cs ds nt h k mro cname :
  In "state_names" reserved -> In "state_descriptions" reserved ->
  define_all reserved cs = Ok ds ->
  nth_error h k = Some (EInst mro cname) ->
  nth_error (run_history {| w_dicts := ds; w_nt := nt |} h) k = Some (class_outcome ds mro).
Proof.
  intros R1 R2 D N. apply (history_independent ds nt h k mro cname); [|exact N].
  intros d k' s I J. destruct (define_all_names_free reserved cs ds D d k' s I J) as [_ F].
  split; intros E; subst k'; contradiction.
Qed.
