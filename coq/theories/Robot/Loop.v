(* The framework programs of Robot.Model: they are safe and their static call sequence is the
   specification (C05); the FMS state in force at each call is the specified one, which turns
   [Mixed.denote_first_fatal] into the theorems about the whole run under faults (C07); the
   will_reset_to reset (C10); feedback publication (C11). *)
From Coq Require Import ZArith List Bool Lia Arith.
From RecordUpdate Require Import RecordSet.
Import ListNotations RecordSetNotations.
From RV Require Import Robot.Model Robot.Proofs Robot.Mixed.
Open Scope Z_scope.

(* predicates on programs that are a conjunction over the parts of a sequence *)
Section Compositional.
Variable P : prog -> bool.
Hypothesis P_nop : P PNop = true.
Hypothesis P_seq : forall a b, P (PSeq a b) = P a && P b.

Lemma all_pseq l : P (pseq l) = forallb P l.
Proof. unfold pseq. induction l as [|p l IH]; cbn [fold_right forallb]; [exact P_nop | rewrite P_seq, IH; reflexivity]. Qed.
Lemma all_for_components c f : (forall i, P (f i) = true) -> P (for_components c f) = true.
Proof.
  intros H. unfold for_components. rewrite all_pseq. apply forallb_map_all, H.
Qed.
Lemma all_ticks c ts : forall cur,
  (forall cur t, In t ts -> P (snd (tick_prog c cur t)) = true) -> P (ticks_prog c cur ts) = true.
Proof.
  induction ts as [|t r IH]; intros cur H; cbn [ticks_prog]; [exact P_nop|].
  pose proof (H cur t (or_introl eq_refl)) as Ht. destruct (tick_prog c cur t) as [cur' p]. cbn [snd] in Ht.
  assert (Hr : P (PSeq p (ticks_prog c cur' r)) = true)
    by (rewrite P_seq, Ht, IH; [reflexivity | intros cur0 t0 Hin; apply H; right; exact Hin]).
  destruct t; [exact Hr | exact Ht | exact Hr].
Qed.
End Compositional.

(* framework code proper: every callback under a guard of its own, and no step of the
   environment *)
Fixpoint fw (p : prog) : bool :=
  match p with
  | PInvoke _ | PFms _ => false
  | PGuard (PInvoke _) => true
  | PGuard q => fw q
  | PSeq a b => fw a && fw b
  | _ => true
  end.
Lemma fw_safe p : fw p = true -> safe p = true.
Proof.
  induction p as [| | | | | | q IH | a IHa b IHb]; cbn [fw safe]; intros H; auto.
  - destruct q; try reflexivity; apply IH, H.
  - apply andb_true_iff in H. destruct H. rewrite IHa, IHb; auto.
Qed.
Lemma fw_stays v p : fw p = true -> fms_stays v p = true.
Proof.
  induction p as [| | | | | | q IH | a IHa b IHb]; cbn [fw fms_stays]; intros H; auto; try discriminate.
  - destruct q; try reflexivity; apply IH, H.
  - apply andb_true_iff in H. destruct H. rewrite IHa, IHb; auto.
Qed.
Notation fw_pseq := (all_pseq fw eq_refl (fun _ _ => eq_refl)).

Section P.
Variable c : cfg.

(* what one wake-up runs is framework code proper; startup is not (setup() is unguarded) *)
Lemma fw_for_when has (s : nat -> site) :
  fw (for_components c (fun i => pwhen (has i) (PGuard (PInvoke (s i))))) = true.
Proof. apply all_for_components; [reflexivity | reflexivity | intros i; destruct (has i); reflexivity]. Qed.
Lemma fw_do_periodics : fw (do_periodics c) = true.
Proof.
  unfold do_periodics. rewrite fw_pseq. cbn [forallb]. rewrite fw_pseq, forallb_map_all by reflexivity.
  reflexivity.
Qed.
Lemma fw_enabled_periodic : fw (enabled_periodic c) = true.
Proof.
  unfold enabled_periodic. rewrite fw_pseq. cbn [forallb].
  rewrite fw_do_periodics, (all_for_components fw) by reflexivity. reflexivity.
Qed.
(* a selector callback that exists only when an autonomous mode is selected, under its guard *)
Lemma fw_guard_pwhen b s : fw (PGuard (pwhen b (PInvoke s))) = true.
Proof. destruct b; reflexivity. Qed.

(* a guard around framework code *)
Lemma fw_guard q : fw q = true -> fw (PGuard q) = true.
Proof. intros H. destruct q; try exact H. (* a callback: the guard is its own *) reflexivity. Qed.

Lemma fw_enter m : fw (enter c m) = true.
Proof.
  destruct m; unfold enter, put_mode; rewrite fw_pseq; cbn [forallb].
  - (* Disabled *) unfold on_mode_disable_components. rewrite fw_for_when. reflexivity.
  - (* Auto *) unfold on_mode_enable_components. rewrite fw_for_when, fw_guard_pwhen. reflexivity.
  - (* Teleop *) unfold on_mode_enable_components. rewrite fw_for_when. reflexivity.
  - (* Test *) reflexivity.
Qed.
Lemma fw_iteration m : fw (iteration c m) = true.
Proof.
  destruct m; unfold iteration; rewrite fw_pseq; cbn [forallb].
  - (* Disabled *) rewrite fw_do_periodics. reflexivity.
  - (* Auto *) rewrite fw_guard_pwhen, (fw_guard _ fw_enabled_periodic).
    destruct (teleop_in_auto c); reflexivity.
  - (* Teleop *) rewrite fw_enabled_periodic. reflexivity.
  - (* Test *) rewrite fw_do_periodics. reflexivity.
Qed.
Lemma fw_leave m : fw (leave c m) = true.
Proof.
  destruct m; unfold leave.
  - (* Disabled *) reflexivity.
  - (* Auto *) unfold on_mode_disable_components. rewrite fw_pseq. cbn [forallb].
    rewrite fw_guard_pwhen, fw_for_when. reflexivity.
  - (* Teleop *) apply fw_for_when.
  - (* Test *) reflexivity.
Qed.
Lemma fw_tick cur t : fw (snd (tick_prog c cur t)) = match t with Fms _ => false | _ => true end.
Proof.
  destruct t as [en au te| |b]; cbn [tick_prog].
  - destruct cur as [m|]; [destruct (stays m en au te)|]; cbn [snd].
    + (* another pass *) apply fw_iteration.
    + (* mode change *) rewrite fw_pseq. cbn [forallb]. rewrite fw_leave, fw_enter, fw_iteration. reflexivity.
    + (* first mode *) rewrite fw_pseq. cbn [forallb]. rewrite fw_enter, fw_iteration. reflexivity.
  - destruct cur; cbn [snd]; [apply fw_leave | reflexivity].
  - reflexivity.
Qed.

Lemma safe_tick cur t : safe (snd (tick_prog c cur t)) = true.
Proof. destruct t; try reflexivity; apply fw_safe, fw_tick. Qed.
Lemma safe_ticks ts cur : safe (ticks_prog c cur ts) = true.
Proof. apply (all_ticks safe); [reflexivity | reflexivity | intros cur' t _; apply safe_tick]. Qed.

(* the Fms ticks of [ts] all carry [v]: the FMS state never changes *)
Definition fms_ticks_stay (v : bool) (ts : list tick) : bool :=
  forallb (fun t => match t with Fms b => Bool.eqb b v | _ => true end) ts.

Lemma fms_stays_tick v cur t :
  fms_stays v (snd (tick_prog c cur t)) = match t with Fms b => Bool.eqb b v | _ => true end.
Proof. destruct t; try reflexivity; apply fw_stays, fw_tick. Qed.
Lemma fms_stays_ticks v ts cur : fms_ticks_stay v ts = true -> fms_stays v (ticks_prog c cur ts) = true.
Proof.
  intros H. apply (all_ticks (fms_stays v)); [reflexivity | reflexivity |].
  intros cur' t Hin. rewrite fms_stays_tick. exact (proj1 (forallb_forall _ _) H t Hin).
Qed.
Lemma fms_stays_startup v : fms_stays v (startup c) = true.
Proof. apply all_for_components; [reflexivity | reflexivity | intros i; destruct (has_setup c i); reflexivity]. Qed.

(* the static call sequence of the framework programs is the specification *)
Lemma psites_pwhen b p : psites (pwhen b p) = if b then psites p else [].
Proof. destruct b; reflexivity. Qed.

Lemma concat_filter_map {A} (has : nat -> bool) (f : nat -> A) l :
  concat (map (fun i => if has i then [f i] else []) l) = map f (filter has l).
Proof. induction l as [|x l IH]; cbn; [reflexivity|]. destruct (has x); cbn; rewrite IH; reflexivity. Qed.

Lemma psites_for_components_when has (s : nat -> site) g :
  (forall i, psites (g i) = [s i]) ->
  psites (for_components c (fun i => pwhen (has i) (g i))) = filter_sites c has s.
Proof.
  intros Hg. unfold for_components, filter_sites, comps. rewrite psites_pseq, map_map.
  rewrite <- concat_filter_map. f_equal. apply map_ext. intros i. rewrite psites_pwhen, Hg. reflexivity.
Qed.
Lemma psites_on_enable : psites (on_mode_enable_components c) = filter_sites c (has_enable c) SOnEnable.
Proof. apply psites_for_components_when. reflexivity. Qed.
Lemma psites_on_disable : psites (on_mode_disable_components c) = filter_sites c (has_disable c) SOnDisable.
Proof. apply psites_for_components_when. reflexivity. Qed.
Lemma psites_startup : psites (startup c) = startup_sites c.
Proof. apply psites_for_components_when. reflexivity. Qed.

Lemma concat_map_singleton {A B} (f : A -> B) l : concat (map (fun x => [f x]) l) = map f l.
Proof. induction l as [|x l IH]; cbn; [reflexivity | rewrite IH; reflexivity]. Qed.

Lemma psites_do_periodics : psites (do_periodics c) = fb_sites c.
Proof.
  unfold do_periodics, fb_sites. rewrite psites_pseq. cbn [map concat psites]. rewrite psites_pseq, map_map.
  rewrite (concat_map_singleton SFeedback), app_nil_r. reflexivity.
Qed.
Lemma psites_execs : psites (for_components c (fun i => PGuard (PInvoke (SExecute i)))) = exec_sites c.
Proof.
  unfold for_components, exec_sites, comps. rewrite psites_pseq, map_map.
  apply (concat_map_singleton SExecute).
Qed.
Lemma psites_enabled_periodic : psites (enabled_periodic c) = exec_sites c ++ fb_sites c.
Proof.
  unfold enabled_periodic. rewrite psites_pseq. cbn [map concat].
  rewrite psites_execs, psites_do_periodics. cbn. rewrite !app_nil_r. reflexivity.
Qed.

Lemma psites_enter m : psites (enter c m) = enter_sites c m.
Proof.
  destruct m; unfold enter, enter_sites, put_mode; rewrite psites_pseq; cbn [map concat psites app].
  - (* Disabled *) rewrite psites_on_disable. reflexivity.
  - (* Auto *) rewrite psites_on_enable, psites_pwhen, app_nil_r. reflexivity.
  - (* Teleop *) rewrite psites_on_enable. reflexivity.
  - (* Test *) reflexivity.
Qed.
Lemma psites_iteration m : psites (iteration c m) = iter_sites c m.
Proof.
  destruct m; unfold iteration, iter_sites; rewrite psites_pseq; cbn [map concat psites app].
  - (* Disabled *) rewrite psites_do_periodics, app_nil_r. reflexivity.
  - (* Auto *) rewrite !psites_pwhen, psites_enabled_periodic, app_nil_r. reflexivity.
  - (* Teleop *) rewrite psites_enabled_periodic, app_nil_r. reflexivity.
  - (* Test *) rewrite psites_do_periodics, app_nil_r. reflexivity.
Qed.
Lemma psites_leave m : psites (leave c m) = leave_sites c m.
Proof.
  destruct m; unfold leave, leave_sites.
  - (* Disabled *) reflexivity.
  - (* Auto *) rewrite psites_pseq. cbn [map concat psites]. rewrite psites_on_disable, psites_pwhen, app_nil_r.
    reflexivity.
  - (* Teleop *) apply psites_on_disable.
  - (* Test *) reflexivity.
Qed.

Lemma tick_prog_sites cur t :
  fst (tick_prog c cur t) = fst (tick_sites c cur t) /\
  psites (snd (tick_prog c cur t)) = snd (tick_sites c cur t).
Proof.
  destruct t as [en au te| |fb]; cbn [tick_prog tick_sites].
  - destruct cur as [m|].
    + destruct (stays m en au te); cbn [fst snd]; [split; [reflexivity | apply psites_iteration]|].
      split; [reflexivity|]. rewrite psites_pseq. cbn [map concat].
      rewrite psites_leave, psites_enter, psites_iteration, app_nil_r. reflexivity.
    + cbn [fst snd]. split; [reflexivity|]. rewrite psites_pseq. cbn [map concat].
      rewrite psites_enter, psites_iteration, app_nil_r. reflexivity.
  - destruct cur; cbn [fst snd]; split; try reflexivity. apply psites_leave.
  - cbn [fst snd]. split; reflexivity.
Qed.

Lemma psites_ticks ts : forall cur, psites (ticks_prog c cur ts) = ticks_sites c cur ts.
Proof.
  induction ts as [|t r IH]; intros cur; cbn [ticks_prog ticks_sites]; [reflexivity|].
  destruct (tick_prog_sites cur t) as [H1 H2].
  destruct (tick_prog c cur t) as [cur' p]. destruct (tick_sites c cur t) as [cur'' s]. cbn [fst snd] in *. subst.
  destruct t; [cbn [psites]; rewrite IH; reflexivity | reflexivity | cbn [psites]; rewrite IH; reflexivity].
Qed.

Theorem psites_robot ts : psites (robot_prog c ts) = spec_sites c ts.
Proof. unfold robot_prog, spec_sites. cbn [psites]. rewrite psites_startup, psites_ticks. reflexivity. Qed.

(* ... and the FMS state in force at each of its calls is the specified one *)
Lemma fflags_ticks ts : forall cur v, fflags (ticks_prog c cur ts) v = ticks_fms c cur v ts.
Proof.
  induction ts as [|t r IH]; intros cur v; [reflexivity|].
  destruct t as [en au te| |b]; [| |exact (IH cur b)]; cbn [ticks_prog ticks_fms].
  - destruct (tick_prog_sites cur (Tick en au te)) as [H1 H2].
    pose proof (fms_stays_tick v cur (Tick en au te)) as Hs.
    destruct (tick_prog c cur (Tick en au te)) as [cur' p]. destruct (tick_sites c cur (Tick en au te)) as [cur'' s].
    cbn [fst snd] in *. subst. cbn [fflags]. rewrite (fflags_stays v p Hs), (fend_stays v p Hs), IH. reflexivity.
  - destruct (tick_prog_sites cur End) as [H1 H2]. pose proof (fms_stays_tick v cur End) as Hs.
    destruct (tick_prog c cur End) as [cur' p]. destruct (tick_sites c cur End) as [cur'' s].
    cbn [fst snd] in *. subst. rewrite (fflags_stays v p Hs), app_nil_r. reflexivity.
Qed.
Lemma fflags_robot ts : fflags (robot_prog c ts) (fms c) = spec_fms c ts.
Proof.
  unfold robot_prog, spec_fms. cbn [fflags].
  rewrite (fflags_stays _ _ (fms_stays_startup _)), (fend_stays _ _ (fms_stays_startup _)), psites_startup, fflags_ticks.
  reflexivity.
Qed.
Lemma spec_fms_stays v ts : fms c = v -> fms_ticks_stay v ts = true ->
  spec_fms c ts = repeat v (length (spec_sites c ts)).
Proof.
  intros <- Hts. rewrite <- fflags_robot, <- psites_robot. apply fflags_stays.
  unfold robot_prog. cbn [fms_stays]. rewrite fms_stays_startup, fms_stays_ticks; auto.
Qed.

Variable raises : nat -> bool.
Variable writes : nat -> list (nat * nat * Z).
Variable fbval : nat -> Z.
Notation denote := (denote c raises writes fbval).
Notation robot_run := (robot_run c raises writes fbval).

Definition setup_quiet : Prop := forall k, (k < length (startup_sites c))%nat -> raises k = false.

(* The whole run, FMS changing at will: exactly the specified calls up to and including the
   first raising invocation that happens while the FMS is not attached; the robot dies there
   and only there.  setup() is not guarded: a setup() that raises while the FMS is attached
   is outside the theorem. *)
Theorem run_mixed ts : fms c = false \/ setup_quiet ->
  match first_fatal raises 0 (spec_fms c ts) with
  | Some i => sites (snd (robot_run ts)) = firstn (S i) (spec_sites c ts)
              /\ in_flight (fst (robot_run ts)) = true
  | None => sites (snd (robot_run ts)) = spec_sites c ts
            /\ in_flight (fst (robot_run ts)) = false
  end.
Proof.
  intros Hq. assert (Ht : tame raises (robot_prog c ts) 0 (fms c)).
  { split; [|apply tame_safe, safe_ticks]. destruct Hq as [Hf|Hq].
    - rewrite Hf. apply tame_detached, fms_stays_startup.
    - apply tame_quiet. rewrite psites_startup. exact Hq. }
  pose proof (denote_first_fatal c raises writes fbval (robot_prog c ts) (init_world c) eq_refl Ht) as H.
  change (w_fms (init_world c)) with (fms c) in H. change (w_n (init_world c)) with 0%nat in H.
  rewrite fflags_robot in H.
  unfold runs_to in H. rewrite psites_robot in H. fold (robot_run ts) in H.
  destruct (robot_run ts) as [w e]. cbn [fst snd]. destruct (first_fatal raises 0 (spec_fms c ts)); tauto.
Qed.

(* C05/C07: with the FMS attached the robot makes exactly the calls of the
   specification, in order, whatever raises (outside setup()), and keeps running *)
Theorem run_fms ts : fms c = true -> fms_ticks_stay true ts = true -> setup_quiet ->
  sites (snd (robot_run ts)) = spec_sites c ts /\ in_flight (fst (robot_run ts)) = false.
Proof.
  intros Hf Hts Hq. pose proof (run_mixed ts (or_intror Hq)) as H.
  rewrite (spec_fms_stays true ts Hf Hts), first_fatal_all_true in H. exact H.
Qed.

(* C07: without the FMS the first raising callback is the last one: the exception
   propagates out of the robot program *)
Theorem run_nofms ts : fms c = false -> fms_ticks_stay false ts = true ->
  match first_raise raises 0 (length (spec_sites c ts)) with
  | Some i => sites (snd (robot_run ts)) = firstn (S i) (spec_sites c ts) /\ in_flight (fst (robot_run ts)) = true
  | None => sites (snd (robot_run ts)) = spec_sites c ts /\ in_flight (fst (robot_run ts)) = false
  end.
Proof.
  intros Hf Hts. pose proof (run_mixed ts (or_introl Hf)) as H.
  rewrite (spec_fms_stays false ts Hf Hts), first_fatal_all_false in H. exact H.
Qed.

(* C11.  The feedback phase of a pass, FMS attached: entry j holds what getter j returned in this
   pass, or is unchanged if it raised *)
Lemma feedbacks_run n : forall a w, in_flight w = false -> w_fms w = true ->
  let '(w', e) := denote (pseq (map PFeedback (seq a n))) w in
  in_flight w' = false /\ w_n w' = (w_n w + n)%nat /\ w_ntmode w' = w_ntmode w /\
  forall j, w_nt w' j =
    if (a <=? j)%nat && (j <? a + n)%nat
    then (if raises (w_n w + (j - a)) then w_nt w j else Some (fbval (w_n w + (j - a))))
    else w_nt w j.
Proof.
  induction n as [|n IH]; intros a w Hw Hf.
  - cbn [seq map pseq fold_right]. rewrite denote_nop.
    split; [exact Hw|]. split; [lia|]. split; [reflexivity|].
    intros j. destruct (Nat.leb_spec a j), (Nat.ltb_spec j (a + 0)); try reflexivity; lia.
  - cbn [seq map]. unfold pseq. cbn [fold_right]. fold (pseq (map PFeedback (seq (S a) n))).
    rewrite (denote_seq c raises writes fbval) by exact Hw.
    pose proof (feedback_spec c raises writes fbval a w Hw) as H1. destruct (denote (PFeedback a) w) as [w1 e1].
    destruct H1 as (A3 & A4 & _ & A2 & A1f & A1). rewrite Hf, andb_false_r in A1. rewrite Hf in A1f.
    specialize (IH (S a) w1 A1 A1f). destruct (denote (pseq (map PFeedback (seq (S a) n))) w1) as [w2 e2].
    destruct IH as (B1 & B2 & B3 & B4).
    split; [exact B1|]. split; [lia|]. split; [congruence|].
    intros j. rewrite B4, !A4, A2. unfold updn. destruct (Nat.eqb_spec j a) as [->|Hne].
    + rewrite Nat.sub_diag, Nat.add_0_r, Nat.leb_refl.
      rewrite (proj2 (Nat.leb_gt (S a) a)), (proj2 (Nat.ltb_lt a (a + S n))) by lia. reflexivity.
    + replace (a + S n)%nat with (S a + n)%nat by lia. destruct (Nat.leb_spec (S a) j) as [Hle|Hgt].
      * rewrite (proj2 (Nat.leb_le a j)) by lia. cbn [andb].
        replace (S (w_n w) + (j - S a))%nat with (w_n w + (j - a))%nat by lia. reflexivity.
      * rewrite (proj2 (Nat.leb_gt a j)) by lia. reflexivity.
Qed.

(* C10: the reset at the end of every enabled iteration *)
Lemma reset_store_marked st ci a d : marked c ci a = Some d -> reset_store c st ci a = d.
Proof. intros H. unfold reset_store. rewrite H. reflexivity. Qed.
Lemma reset_store_unmarked st ci a : marked c ci a = None -> reset_store c st ci a = st ci a.
Proof. intros H. unfold reset_store. rewrite H. reflexivity. Qed.

Definition enabled_mode (m : mode) : bool := match m with Auto | Teleop => true | _ => false end.

(* A pass that completes has run its last step, and that is the reset. *)
Lemma enabled_periodic_resets w : in_flight (fst (denote (enabled_periodic c) w)) = false ->
  exists st, w_store (fst (denote (enabled_periodic c) w)) = reset_store c st.
Proof.
  unfold enabled_periodic, pseq. cbn [fold_right].
  rewrite !(denote_seq_fst c raises writes fbval), denote_nop. cbn [fst].
  set (w2 := fst (denote (do_periodics c) _)). intros H.
  pose proof (quiet_before c raises writes fbval PReset w2 H) as H2.
  exists (w_store w2). cbn [Model.denote]. rewrite H2. reflexivity.
Qed.

Lemma completed_iteration_resets m w : enabled_mode m = true ->
  in_flight (fst (denote (iteration c m) w)) = false ->
  forall ci a d, marked c ci a = Some d -> w_store (fst (denote (iteration c m) w)) ci a = d.
Proof.
  intros Hm H.
  assert (E : exists st, w_store (fst (denote (iteration c m) w)) = reset_store c st);
    [|destruct E as [st E]; intros ci a d Hd; rewrite E; apply reset_store_marked, Hd].
  destruct m; try discriminate; unfold iteration, pseq in *; cbn [fold_right] in *;
    rewrite !(denote_seq_fst c raises writes fbval), denote_nop in *; cbn [fst] in *.
  - (* autonomous: the pass runs under a guard of its own, which changes nothing *)
    set (w2 := fst (denote (pwhen (teleop_in_auto c) _) _)) in *.
    pose proof (quiet_before c raises writes fbval _ w2 H) as H2.
    rewrite (denote_guard_fst c raises writes fbval _ w2 H2),
      (guard_transparent c raises writes fbval (enabled_periodic c) w2 H2
         (tame_safe raises _ (fw_safe _ fw_enabled_periodic) _ _)) in *.
    apply enabled_periodic_resets, H.
  - apply enabled_periodic_resets, H.
Qed.

Lemma iteration_completes m w : in_flight w = false ->
  w_fms w = true \/ (forall i, (i < length (psites (iteration c m)))%nat -> raises (w_n w + i) = false) ->
  in_flight (fst (denote (iteration c m) w)) = false.
Proof.
  intros Hw Hc.
  pose proof (denote_completes c raises writes fbval (iteration c m) w Hw
                (tame_safe raises _ (fw_safe _ (fw_iteration m)) _ _)) as H.
  destruct (denote (iteration c m) w) as [w' e]. apply H.
  destruct Hc as [Hf|Hq]; [left; split; [exact Hf | apply fw_stays, fw_iteration] | right; exact Hq].
Qed.

(* after every teleop/autonomous iteration that completes -- the FMS is attached when it starts
   (whichever callbacks raise), OR no callback of it raises -- every will_reset_to attribute is
   back at its declared default *)
Theorem iteration_resets m w :
  w_fms w = true \/ (forall i, (i < length (psites (iteration c m)))%nat -> raises (w_n w + i) = false) ->
  enabled_mode m = true -> in_flight w = false ->
  let '(w', e) := denote (iteration c m) w in
  in_flight w' = false /\ forall ci a d, marked c ci a = Some d -> w_store w' ci a = d.
Proof.
  intros Hc Hm Hw. pose proof (iteration_completes m w Hw Hc) as H1.
  pose proof (completed_iteration_resets m w Hm H1) as H2.
  destruct (denote (iteration c m) w) as [w' e]. exact (conj H1 H2).
Qed.

Lemma init_store_defaults ci a d : marked c ci a = Some d -> w_store (init_world c) ci a = d.
Proof. intros H. cbn. rewrite H. reflexivity. Qed.

(* what execute() sees is the store at that moment: everything assigned since the
   last reset, by whichever callback *)
Lemma execute_sees_store i w :
  snd (Model.invoke c raises writes (SExecute i) w) = [EvExec i (snapshot c w)].
Proof. unfold Model.invoke. destruct (raises (w_n w)); reflexivity. Qed.

End P.

(* [run_fms] for [raises] and for the robot no callback of which raises: with the FMS attached
   the calls made do not depend on the faults *)
Corollary run_fms_independent_of_faults c raises writes fbval ts :
  fms c = true -> fms_ticks_stay true ts = true -> setup_quiet c raises ->
  sites (snd (robot_run c raises writes fbval ts)) = sites (snd (robot_run c (fun _ => false) writes fbval ts)).
Proof.
  intros Hf Hts Hq. rewrite (proj1 (run_fms c raises writes fbval ts Hf Hts Hq)).
  symmetry. apply (fun H => proj1 (run_fms c (fun _ => false) writes fbval ts Hf Hts H)). intros k _. reflexivity.
Qed.
