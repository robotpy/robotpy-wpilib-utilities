(* C06 (and the counting parts of C05/C11): properties of the specified call
   sequence [spec_sites], for every robot layout and every tick history. *)
From Coq Require Import ZArith List Bool Lia Arith FinFun.
Import ListNotations.
From RV Require Import Robot.Model Robot.Proofs.

Definition site_eq_dec : forall a b : site, {a = b} + {a <> b}.
Proof. decide equality; try apply Nat.eq_dec; decide equality. Defined.

Definition is_setup (s : site) : bool := match s with SSetup _ => true | _ => false end.
Definition is_execute (s : site) : bool := match s with SExecute _ => true | _ => false end.

Section P.
Variable c : cfg.

Lemma tick_sites_change m en au te : stays m en au te = false ->
  snd (tick_sites c (Some m) (Tick en au te)) =
  leave_sites c m ++ enter_sites c (dispatch en au te) ++ iter_sites c (dispatch en au te).
Proof. intros H. cbn [tick_sites]. rewrite H. reflexivity. Qed.

(* setup(): once per component that has one, before every other callback *)
Lemma filter_sites_in has f i : (forall a b, f a = f b -> a = b) ->
  In (f i) (filter_sites c has f) <-> (i < ncomp c)%nat /\ has i = true.
Proof.
  intros Hinj. unfold filter_sites, comps. rewrite in_map_iff. split.
  - intros (j & Hj & Hin). apply Hinj in Hj. subst j. apply filter_In in Hin. rewrite in_seq in Hin. split; [lia | tauto].
  - intros [H1 H2]. exists i. split; [reflexivity|]. apply filter_In. split; [apply in_seq; lia | exact H2].
Qed.

Lemma filter_sites_nodup has f : (forall a b, f a = f b -> a = b) -> NoDup (filter_sites c has f).
Proof.
  intros Hinj. unfold filter_sites. apply Injective_map_NoDup; [exact Hinj|].
  apply NoDup_filter, seq_NoDup.
Qed.

Notation no_setup := (forallb (fun s => negb (is_setup s))).

Lemma no_setup_enter m : no_setup (enter_sites c m) = true.
Proof.
  destruct m; unfold enter_sites, filter_sites; rewrite ?forallb_app, ?forallb_map_all by reflexivity;
    try destruct (has_auto c); reflexivity.
Qed.
Lemma no_setup_iter m : no_setup (iter_sites c m) = true.
Proof.
  destruct m; unfold iter_sites, fb_sites, exec_sites; rewrite ?forallb_app, ?forallb_map_all by reflexivity;
    try destruct (has_auto c); try destruct (teleop_in_auto c); reflexivity.
Qed.
Lemma no_setup_leave m : no_setup (leave_sites c m) = true.
Proof.
  destruct m; unfold leave_sites, filter_sites; rewrite ?forallb_app, ?forallb_map_all by reflexivity;
    try destruct (has_auto c); reflexivity.
Qed.
Lemma no_setup_tick cur t : no_setup (snd (tick_sites c cur t)) = true.
Proof.
  destruct t as [en au te| |fb]; cbn [tick_sites].
  - destruct cur as [m|]; [destruct (stays m en au te)|]; cbn [snd];
      rewrite ?forallb_app, ?no_setup_leave, ?no_setup_enter, ?no_setup_iter; reflexivity.
  - destruct cur; cbn [snd]; [apply no_setup_leave | reflexivity].
  - reflexivity.
Qed.
Lemma no_setup_ticks ts : forall cur, no_setup (ticks_sites c cur ts) = true.
Proof.
  induction ts as [|t r IH]; intros cur; cbn [ticks_sites]; [reflexivity|].
  pose proof (no_setup_tick cur t) as H. destruct (tick_sites c cur t) as [cur' s]. cbn [snd] in H.
  destruct t; [rewrite forallb_app, H, IH; reflexivity | exact H | rewrite forallb_app, H, IH; reflexivity].
Qed.

Theorem setup_once_first ts :
  spec_sites c ts = startup_sites c ++ ticks_sites c None ts /\
  NoDup (startup_sites c) /\
  (forall i, In (SSetup i) (startup_sites c) <-> (i < ncomp c)%nat /\ has_setup c i = true) /\
  (forall s, In s (startup_sites c) -> is_setup s = true) /\
  (forall s, In s (ticks_sites c None ts) -> is_setup s = false).
Proof.
  split; [reflexivity|]. split; [apply filter_sites_nodup; intros a b H; injection H; auto|].
  split; [intros i; apply filter_sites_in; intros a b H; injection H; auto|]. split.
  - intros s Hin. unfold startup_sites, filter_sites in Hin. apply in_map_iff in Hin. destruct Hin as (i & <- & _). reflexivity.
  - intros s Hin. apply negb_true_iff. exact (proj1 (forallb_forall _ _) (no_setup_ticks ts None) s Hin).
Qed.

(* execute() only between on_enable() and the next on_disable(): [brk] replays a call sequence
   with one flag per component *)
Definition flags := nat -> bool.

Fixpoint brk (en : flags) (l : list site) : option flags :=
  match l with
  | [] => Some en
  | SOnEnable i :: r => brk (updn en i true) r
  | SOnDisable i :: r => brk (updn en i false) r
  | SExecute i :: r => if negb (has_enable c i) || en i then brk en r else None
  | _ :: r => brk en r
  end.

Lemma brk_app en a b : brk en (a ++ b) = match brk en a with Some en' => brk en' b | None => None end.
Proof.
  revert en. induction a as [|s a IH]; intros en; cbn [app brk]; [reflexivity|].
  destruct s; try apply IH. destruct (negb (has_enable c i) || en i); [apply IH | reflexivity].
Qed.

(* sites that neither set, clear nor test a flag *)
Definition neutral (s : site) : bool :=
  match s with SOnEnable _ | SOnDisable _ | SExecute _ => false | _ => true end.
Lemma brk_neutral en l : forallb neutral l = true -> brk en l = Some en.
Proof.
  induction l as [|s l IH]; cbn [forallb brk]; [reflexivity|]. intros H. apply andb_true_iff in H.
  destruct H as [H1 H2]. destruct s; try discriminate; apply IH, H2.
Qed.
Lemma brk_opt en (b : bool) s : neutral s = true -> brk en (if b then [s] else []) = Some en.
Proof. intros H. apply brk_neutral. destruct b; cbn; rewrite ?H; reflexivity. Qed.

Lemma brk_enable l : forall en, exists en', brk en (map SOnEnable l) = Some en' /\
  forall i, In i l \/ en i = true -> en' i = true.
Proof.
  induction l as [|x l IH]; intros en; cbn [map brk].
  - exists en. split; [reflexivity|]. intros i [[]|H]. exact H.
  - destruct (IH (updn en x true)) as (en' & H1 & H2). exists en'. split; [exact H1|].
    intros i Hi. apply H2. unfold updn. destruct (Nat.eqb_spec i x) as [->|Hne]; [right; reflexivity|].
    destruct Hi as [[E|Hi]|Hi]; [congruence | left; exact Hi | right; exact Hi].
Qed.
Lemma brk_disable l : forall en, exists en', brk en (map SOnDisable l) = Some en'.
Proof. induction l as [|x l IH]; intros en; cbn [map brk]; [eauto | apply IH]. Qed.
Lemma brk_exec en l : (forall i, In i l -> has_enable c i = true -> en i = true) ->
  brk en (map SExecute l) = Some en.
Proof.
  induction l as [|x l IH]; intros H; cbn [map brk]; [reflexivity|].
  replace (negb (has_enable c x) || en x) with true.
  - apply IH. intros i Hi. apply H. right. exact Hi.
  - destruct (has_enable c x) eqn:E; [|reflexivity]. symmetry. apply (H x (or_introl eq_refl) E).
Qed.

Definition all_enabled (en : flags) : Prop :=
  forall i, (i < ncomp c)%nat -> has_enable c i = true -> en i = true.
Definition enabled_mode_b (m : mode) : bool := match m with Auto | Teleop => true | _ => false end.
(* the invariant of the replay, wake-up by wake-up: in the enabled modes every component that
   has an on_enable() is inside its bracket *)
Definition brackets_open (cur : option mode) (en : flags) : Prop :=
  match cur with Some m => enabled_mode_b m = true -> all_enabled en | None => True end.

Lemma brk_on_enable en : exists en', brk en (filter_sites c (has_enable c) SOnEnable) = Some en' /\ all_enabled en'.
Proof.
  destruct (brk_enable (filter (has_enable c) (comps c)) en) as (en' & H1 & H2).
  exists en'. split; [exact H1|]. intros i Hi He. apply H2. left.
  apply filter_In. split; [apply in_seq; lia | exact He].
Qed.

Lemma neutral_fb : forallb neutral (fb_sites c) = true.
Proof. unfold fb_sites. rewrite forallb_app, forallb_map_all by reflexivity. reflexivity. Qed.

Lemma brk_iter m en : (enabled_mode_b m = true -> all_enabled en) -> brk en (iter_sites c m) = Some en.
Proof.
  intros H.
  assert (Hex : enabled_mode_b m = true -> brk en (exec_sites c ++ fb_sites c) = Some en).
  { intros Hm. unfold exec_sites. rewrite brk_app, brk_exec; [apply brk_neutral, neutral_fb|].
    intros i Hi. apply (H Hm). apply in_seq in Hi. lia. }
  destruct m; unfold iter_sites; cbn [app brk].
  - (* Disabled *) apply brk_neutral, neutral_fb.
  - (* Auto *) rewrite brk_app, brk_opt, brk_app, brk_opt by reflexivity. apply Hex. reflexivity.
  - (* Teleop *) apply Hex. reflexivity.
  - (* Test *) apply brk_neutral, neutral_fb.
Qed.

Lemma brk_enter m en : exists en', brk en (enter_sites c m) = Some en' /\ (enabled_mode_b m = true -> all_enabled en').
Proof.
  destruct m; unfold enter_sites.
  - destruct (brk_disable (filter (has_disable c) (comps c)) en) as (en' & H).
    exists en'. unfold filter_sites. rewrite brk_app, H. split; [reflexivity | discriminate].
  - destruct (brk_on_enable en) as (en' & H1 & H2). exists en'. rewrite !brk_app, H1. cbn [brk].
    split; [apply brk_opt; reflexivity | intros _; exact H2].
  - destruct (brk_on_enable en) as (en' & H1 & H2). exists en'. rewrite brk_app, H1. cbn [brk]. auto.
  - exists en. split; [reflexivity | discriminate].
Qed.
Lemma brk_leave m en : exists en', brk en (leave_sites c m) = Some en'.
Proof.
  destruct m; unfold leave_sites, filter_sites.
  - (* Disabled *) exists en. reflexivity.
  - (* Auto *) rewrite brk_app, brk_opt by reflexivity. apply brk_disable.
  - (* Teleop *) apply brk_disable.
  - (* Test *) exists en. reflexivity.
Qed.

Lemma brk_tick cur t en : brackets_open cur en ->
  exists en', brk en (snd (tick_sites c cur t)) = Some en' /\ brackets_open (fst (tick_sites c cur t)) en'.
Proof.
  intros Hb. destruct t as [e a te| |fb]; cbn [tick_sites].
  - destruct cur as [m|]; [destruct (stays m e a te)|]; cbn [fst snd].
    + exists en. split; [apply brk_iter, Hb | exact Hb].
    + destruct (brk_leave m en) as (en1 & H1).
      destruct (brk_enter (dispatch e a te) en1) as (en2 & H2 & H3).
      exists en2. rewrite brk_app, H1, brk_app, H2. split; [apply brk_iter, H3 | exact H3].
    + destruct (brk_enter (dispatch e a te) en) as (en2 & H2 & H3).
      exists en2. rewrite brk_app, H2. split; [apply brk_iter, H3 | exact H3].
  - destruct cur as [m|]; cbn [fst snd]; [|exists en; split; [reflexivity | exact I]].
    destruct (brk_leave m en) as (en1 & H1). exists en1. split; [exact H1 | exact I].
  - cbn [fst snd]. exists en. split; [reflexivity | exact Hb].
Qed.

Lemma brk_ticks ts : forall cur en, brackets_open cur en -> exists en', brk en (ticks_sites c cur ts) = Some en'.
Proof.
  induction ts as [|t r IH]; intros cur en Hb; cbn [ticks_sites]; [exists en; reflexivity|].
  destruct (brk_tick cur t en Hb) as (en1 & H1 & H2).
  destruct (tick_sites c cur t) as [cur' s]. cbn [fst snd] in *.
  destruct t; [|exists en1; exact H1|]; rewrite brk_app, H1; apply IH, H2.
Qed.

(* for every layout and every finite sequence of driver-station words: along the
   specified call sequence no execute() of a component with an on_enable() happens
   outside an on_enable()/on_disable() bracket *)
Theorem execute_bracketed ts : brk (fun _ => false) (spec_sites c ts) <> None.
Proof.
  unfold spec_sites, startup_sites, filter_sites.
  rewrite brk_app, brk_neutral by (apply forallb_map_all; reflexivity).
  destruct (brk_ticks ts None (fun _ => false) I) as (en' & H). rewrite H. discriminate.
Qed.

(* counting: every execute / feedback exactly once per iteration *)
Notation cnt := (count_occ site_eq_dec).

Lemma cnt_map_seq (f : nat -> site) n j : (forall x y, f x = f y -> x = y) -> (j < n)%nat ->
  cnt (map f (seq 0 n)) (f j) = 1%nat.
Proof.
  intros Hinj Hj. apply NoDup_count_occ'; [apply Injective_map_NoDup, seq_NoDup; exact Hinj|].
  apply in_map, in_seq. lia.
Qed.
Lemma cnt_map_other {A} (f : A -> site) l s : (forall x, f x <> s) -> cnt (map f l) s = 0%nat.
Proof. intros H. apply count_occ_not_In. intros Hin. apply in_map_iff in Hin. destruct Hin as (x & E & _). exact (H x E). Qed.

Theorem feedback_once_per_iteration m j : (j < nfb c)%nat -> cnt (iter_sites c m) (SFeedback j) = 1%nat.
Proof.
  intros Hj.
  assert (Hfb : cnt (fb_sites c) (SFeedback j) = 1%nat).
  { unfold fb_sites. rewrite count_occ_app, (cnt_map_seq SFeedback) by (congruence || exact Hj). reflexivity. }
  assert (Hex : cnt (exec_sites c) (SFeedback j) = 0%nat) by (apply cnt_map_other; discriminate).
  destruct m; unfold iter_sites; rewrite !count_occ_app, Hfb, ?Hex;
    try destruct (has_auto c); try destruct (teleop_in_auto c); reflexivity.
Qed.

Theorem execute_per_iteration m i : (i < ncomp c)%nat ->
  cnt (iter_sites c m) (SExecute i) = if enabled_mode_b m then 1%nat else 0%nat.
Proof.
  intros Hi.
  assert (Hfb : cnt (fb_sites c) (SExecute i) = 0%nat).
  { unfold fb_sites. rewrite count_occ_app, cnt_map_other by discriminate. reflexivity. }
  assert (Hex : cnt (exec_sites c) (SExecute i) = 1%nat) by (apply cnt_map_seq; [congruence | exact Hi]).
  destruct m; unfold iter_sites; rewrite !count_occ_app, Hfb, ?Hex;
    try destruct (has_auto c); try destruct (teleop_in_auto c); reflexivity.
Qed.

End P.
