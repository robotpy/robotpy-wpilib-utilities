(* The MagicRobot loop: exception semantics of guarded programs (C07).  One theorem,
   [denote_cut], says which calls a program makes when callbacks raise while the FMS comes
   and goes.  The properties use it through [Mixed.denote_first_fatal] (the cut as the first
   fatal call along the FMS states in force) and [Loop.run_mixed] (the whole run), and reach a
   constant FMS state from there ([Loop.run_fms], [Loop.run_nofms]).  [safe_total] and
   [nofms_cut] at the end of this file read the two constant cases directly off [denote_cut],
   for any program; [first_raise_app] and [cut_stays] serve only them. *)
From Coq Require Import ZArith List Bool Lia Arith.
From RecordUpdate Require Import RecordSet.
Import ListNotations RecordSetNotations.
From RV Require Import Robot.Model.
Open Scope Z_scope.

Lemma forallb_map_all {A B} (P : B -> bool) (f : A -> B) l : (forall x, P (f x) = true) -> forallb P (map f l) = true.
Proof. intros H. induction l as [|x l IH]; cbn [map forallb]; [reflexivity | rewrite H; exact IH]. Qed.

Definition sites (t : list event) : list site := map site_of t.
Lemma sites_app a b : sites (a ++ b) = sites a ++ sites b.
Proof. apply map_app. Qed.

Section P.
Variable c : cfg.
Variable raises : nat -> bool.
Variable writes : nat -> list (nat * nat * Z).
Variable fbval : nat -> Z.

Notation denote := (denote c raises writes fbval).
Notation invoke := (invoke c raises writes).

Lemma denote_inert p w : in_flight w = true -> denote p w = (w, []).
Proof. intros H. destruct p; cbn [Model.denote]; rewrite H; reflexivity. Qed.

Lemma denote_seq a b w : in_flight w = false ->
  denote (PSeq a b) w =
  (let '(w1, e1) := denote a w in let '(w2, e2) := denote b w1 in (w2, e1 ++ e2)).
Proof. intros H. cbn [Model.denote]. rewrite H. reflexivity. Qed.

Lemma denote_nop w : denote PNop w = (w, []).
Proof. cbn [Model.denote]. destruct (in_flight w); reflexivity. Qed.

Lemma denote_seq_fst a b w : fst (denote (PSeq a b) w) = fst (denote b (fst (denote a w))).
Proof.
  destruct (in_flight w) eqn:Hw.
  - rewrite (denote_inert (PSeq a b) w Hw), (denote_inert a w Hw). cbn [fst].
    rewrite (denote_inert b w Hw). reflexivity.
  - rewrite denote_seq by exact Hw. destruct (denote a w) as [w1 e1]. cbn [fst].
    destruct (denote b w1). reflexivity.
Qed.

Lemma denote_guard_fst q w : in_flight w = false -> fst (denote (PGuard q) w) = handle (fst (denote q w)).
Proof. intros H. cbn [Model.denote]. rewrite H. destruct (denote q w). reflexivity. Qed.

Lemma quiet_before p w : in_flight (fst (denote p w)) = false -> in_flight w = false.
Proof.
  intros H. destruct (in_flight w) eqn:Hw; [|reflexivity].
  rewrite (denote_inert p w Hw) in H. cbn [fst] in H. congruence.
Qed.

Lemma invoke_spec s w :
  let '(w1, e) := invoke s w in
  sites e = [s] /\ w_n w1 = S (w_n w) /\ w_fms w1 = w_fms w /\
  in_flight w1 = raises (w_n w) || in_flight w /\
  w_nt w1 = w_nt w /\ w_ntmode w1 = w_ntmode w /\
  w_store w1 = apply_writes (writes (w_n w)) (w_store w).
Proof.
  unfold Model.invoke, in_flight. cbv beta iota zeta. split; [destruct s; reflexivity|].
  destruct (raises (w_n w)); cbn; repeat split.
Qed.

(* onException() touches nothing but the exception, and swallows it iff the FMS is attached *)
Lemma handle_frame w :
  w_n (handle w) = w_n w /\ w_store (handle w) = w_store w /\ w_nt (handle w) = w_nt w
  /\ w_ntmode (handle w) = w_ntmode w /\ w_fms (handle w) = w_fms w.
Proof. unfold handle. destruct (in_flight w); [destruct (w_fms w) eqn:E|]; cbn; rewrite ?E; repeat split; auto. Qed.
Lemma handle_in_flight w : in_flight (handle w) = in_flight w && negb (w_fms w).
Proof. unfold handle. destruct (in_flight w) eqn:E; [destruct (w_fms w)|]; cbn; auto. Qed.
Lemma handle_id w : in_flight w = false \/ w_fms w = false -> handle w = w.
Proof. unfold handle. intros [H|H]; rewrite H; [|destruct (in_flight w)]; reflexivity. Qed.

(* [r] is the outcome of one call of [s] from [w] that leaves an exception in flight iff it
   raises while the FMS is detached: a callback under a guard of its own -- a feedback getter,
   or [PGuard (PInvoke s)] -- and an unguarded one unless it raises while the FMS is attached. *)
Definition one_call (s : site) (w : world) (r : world * list event) : Prop :=
  let '(w', e) := r in
  sites e = [s] /\ w_n w' = S (w_n w) /\ w_fms w' = w_fms w /\
  in_flight w' = raises (w_n w) && negb (w_fms w).

Lemma feedback_spec j w : in_flight w = false ->
  let '(w', e) := denote (PFeedback j) w in
  w_ntmode w' = w_ntmode w /\
  (forall x, w_nt w' x = updn (w_nt w) j (if raises (w_n w) then w_nt w j else Some (fbval (w_n w))) x) /\
  one_call (SFeedback j) w (w', e).
Proof.
  intros Hw. cbn [Model.denote]. rewrite Hw.
  pose proof (invoke_spec (SFeedback j) w) as Hi. destruct (invoke (SFeedback j) w) as [w1 e].
  destruct Hi as (H1 & H2 & H3 & H4 & H5 & H6 & _). rewrite Hw, orb_false_r in H4. rewrite H4.
  unfold one_call. destruct (raises (w_n w)).
  - destruct (handle_frame w1) as (Hn & _ & Hnt & Hm & Hf).
    rewrite handle_in_flight, H4, Hn, Hnt, Hm, Hf, H3, H5. repeat split; auto.
    intros x. unfold updn. destruct (Nat.eqb_spec x j) as [->|]; reflexivity.
  - cbn. rewrite H5. repeat split; auto.
Qed.

Lemma unguarded_spec s w : in_flight w = false -> (raises (w_n w) = true -> w_fms w = false) ->
  one_call s w (denote (PInvoke s) w).
Proof.
  intros Hw Ht. cbn [Model.denote]. rewrite Hw.
  pose proof (invoke_spec s w) as Hi. destruct (invoke s w) as [w1 e].
  destruct Hi as (H1 & H2 & H3 & H4 & _). rewrite Hw, orb_false_r in H4.
  unfold one_call. rewrite H4. repeat split; auto.
  destruct (raises (w_n w)); [rewrite Ht|]; reflexivity.
Qed.

Lemma guarded_spec s w : in_flight w = false -> one_call s w (denote (PGuard (PInvoke s)) w).
Proof.
  intros Hw. cbn [Model.denote]. rewrite Hw.
  pose proof (invoke_spec s w) as Hi. destruct (invoke s w) as [w1 e].
  destruct Hi as (H1 & H2 & H3 & H4 & _). rewrite Hw, orb_false_r in H4.
  destruct (handle_frame w1) as (Hn & _ & _ & _ & Hf).
  unfold one_call. rewrite handle_in_flight, H4, Hn, Hf, H3. repeat split; auto.
Qed.

(* programs all of whose callbacks sit directly under a guard *)
Fixpoint safe (p : prog) : bool :=
  match p with
  | PNop | PReset | PMode _ | PFms _ | PFeedback _ => true
  | PInvoke _ => false
  | PGuard q => match q with PInvoke _ => true | _ => safe q end
  | PSeq a b => safe a && safe b
  end.

(* the FMS is never detached / never attached by the program's environment steps *)
Fixpoint fms_stays (v : bool) (p : prog) : bool :=
  match p with
  | PFms b => Bool.eqb b v
  | PGuard q => fms_stays v q
  | PSeq a b => fms_stays v a && fms_stays v b
  | _ => true
  end.

(* the FMS state after [p], started with state [v] *)
Fixpoint fend (p : prog) (v : bool) : bool :=
  match p with
  | PFms b => b
  | PGuard q => fend q v
  | PSeq a b => fend b (fend a v)
  | _ => v
  end.
Lemma fend_stays v p : fms_stays v p = true -> fend p v = v.
Proof.
  induction p; cbn [fms_stays fend]; intros H; auto.
  - apply Bool.eqb_prop, H.
  - apply andb_true_iff in H. destruct H as [H1 H2]. rewrite IHp1, IHp2; auto.
Qed.

Lemma psites_pseq l : psites (pseq l) = concat (map psites l).
Proof. unfold pseq. induction l as [|p l IH]; cbn; [reflexivity | rewrite IH; reflexivity]. Qed.

(* A raising invocation is FATAL when the FMS is not attached at that moment: no handler
   swallows the exception, and nothing else runs.  [cut p k0 v]: the index, in the static call
   sequence of [p], of the first fatal invocation, when [p] starts at invocation [k0] with FMS
   state [v]. *)
Fixpoint cut (p : prog) (k0 : nat) (v : bool) : option nat :=
  match p with
  | PInvoke _ | PFeedback _ => if raises k0 && negb v then Some O else None
  | PGuard q => cut q k0 v
  | PSeq a b =>
      match cut a k0 v with
      | Some i => Some i
      | None => option_map (Nat.add (length (psites a))) (cut b (k0 + length (psites a)) (fend a v))
      end
  | _ => None
  end.

(* [r] is the outcome of running [p] from [w] when exactly the calls up to and including
   the one at [k] are made (all of them for [None]) *)
Definition runs_to (p : prog) (w : world) (r : world * list event) (k : option nat) : Prop :=
  let '(w', e) := r in
  match k with
  | Some i => (i < length (psites p))%nat /\ in_flight w' = true /\ sites e = firstn (S i) (psites p)
              /\ w_n w' = (w_n w + S i)%nat /\ w_fms w' = false
  | None => in_flight w' = false /\ sites e = psites p /\ w_n w' = (w_n w + length (psites p))%nat
            /\ w_fms w' = fend p (w_fms w)
  end.

Lemma runs_to_call p s w r : psites p = [s] -> fend p (w_fms w) = w_fms w -> one_call s w r ->
  runs_to p w r (if raises (w_n w) && negb (w_fms w) then Some O else None).
Proof.
  destruct r as [w' e]. intros Hp Hf (H1 & H2 & H3 & H4). unfold runs_to. rewrite Hp, Hf.
  destruct (raises (w_n w) && negb (w_fms w)) eqn:E; repeat split; auto; try (cbn; lia).
  apply andb_true_iff in E. rewrite H3. apply negb_true_iff, E.
Qed.

(* whether the run completed or died, a handler finds nothing it may swallow *)
Lemma runs_to_unhandled p w r k : runs_to p w r k -> handle (fst r) = fst r.
Proof.
  destruct r as [w' e]. intros H. apply handle_id. unfold runs_to in H. destruct k; [right | left]; tauto.
Qed.

(* A callback outside any guard of its own that raises while the FMS is attached unwinds to
   an enclosing guard and skips what lies between: the calls made are then no prefix of the
   call sequence.  [tame] excludes just that. *)
Fixpoint tame (p : prog) (k0 : nat) (v : bool) : Prop :=
  match p with
  | PInvoke _ => raises k0 = true -> v = false
  | PGuard (PInvoke _) => True
  | PGuard q => tame q k0 v
  | PSeq a b => tame a k0 v /\ tame b (k0 + length (psites a)) (fend a v)
  | _ => True
  end.

Lemma tame_safe p : safe p = true -> forall k0 v, tame p k0 v.
Proof.
  induction p as [| | | | | | q IH | a IHa b IHb]; cbn [safe tame]; intros H k0 v; auto; try discriminate.
  - destruct q; try exact I; apply IH, H.
  - apply andb_true_iff in H. destruct H. split; auto.
Qed.
Lemma tame_detached p : fms_stays false p = true -> forall k0, tame p k0 false.
Proof.
  induction p as [| | | | | | q IH | a IHa b IHb]; cbn [fms_stays tame]; intros H k0; auto.
  - destruct q; try exact I; apply IH, H.
  - apply andb_true_iff in H. destruct H as [H1 H2]. rewrite (fend_stays false a H1). split; auto.
Qed.
Lemma tame_quiet p : forall k0 v,
  (forall i, (i < length (psites p))%nat -> raises (k0 + i) = false) -> tame p k0 v.
Proof.
  induction p as [| | | | | | q IH | a IHa b IHb]; cbn [tame psites length]; intros k0 v H; auto.
  - intros R. rewrite <- (Nat.add_0_r k0), H in R by lia. discriminate.
  - destruct q; try exact I; apply IH, H.
  - rewrite app_length in H. split; [apply IHa; intros i Hi; apply H; lia|].
    apply IHb. intros i Hi. rewrite <- Nat.add_assoc. apply H. lia.
Qed.

(* the statements that call nothing run to their end *)
Lemma denote_silent p w : in_flight w = false ->
  match p with PNop | PReset | PMode _ | PFms _ => True | _ => False end ->
  runs_to p w (denote p w) None.
Proof.
  intros Hw Hp. destruct p; try contradiction Hp; cbn [Model.denote]; rewrite Hw; cbn; repeat split; auto; lia.
Qed.

(* A tame program makes exactly the calls of its static call sequence up to and including the
   first fatal one, and dies there and only there -- decided by the FMS state at the time of
   each fault, not the state at start-up or at some earlier fault. *)
Theorem denote_cut p : forall w, in_flight w = false -> tame p (w_n w) (w_fms w) ->
  runs_to p w (denote p w) (cut p (w_n w) (w_fms w)).
Proof.
  induction p as [| s | j | | m | b0 | q IH | a IHa b IHb]; intros w Hw Ht.
  - (* PNop *) exact (denote_silent PNop w Hw I).
  - (* PInvoke *) exact (runs_to_call (PInvoke s) s w _ eq_refl eq_refl (unguarded_spec s w Hw Ht)).
  - (* PFeedback *) pose proof (feedback_spec j w Hw) as H. destruct (denote (PFeedback j) w) as [w' e].
    exact (runs_to_call (PFeedback j) _ w _ eq_refl eq_refl (proj2 (proj2 H))).
  - (* PReset *) exact (denote_silent PReset w Hw I).
  - (* PMode *) exact (denote_silent (PMode m) w Hw I).
  - (* PFms *) exact (denote_silent (PFms b0) w Hw I).
  - (* PGuard *) assert (Hq : (exists s, q = PInvoke s) \/ tame q (w_n w) (w_fms w))
      by (destruct q; cbn [tame] in Ht |- *; eauto).
    destruct Hq as [[s ->]|Hq].
    + exact (runs_to_call (PGuard (PInvoke s)) s w _ eq_refl eq_refl (guarded_spec s w Hw)).
    + specialize (IH w Hw Hq). cbn [Model.denote cut]. rewrite Hw. destruct (denote q w) as [w1 e].
      rewrite (runs_to_unhandled _ _ _ _ IH : handle w1 = w1). exact IH.
  - (* PSeq *) cbn [tame] in Ht. destruct Ht as [Ha Hb]. cbn [Model.denote cut]. rewrite Hw.
    specialize (IHa w Hw Ha). destruct (denote a w) as [w1 e1].
    destruct (cut a (w_n w) (w_fms w)) as [i|].
    + destruct IHa as (Hi & A1 & A2 & A3 & A4). rewrite (denote_inert b w1 A1), app_nil_r.
      unfold runs_to. cbn [psites]. rewrite app_length, firstn_app.
      replace (S i - length (psites a))%nat with 0%nat by lia. rewrite app_nil_r.
      repeat split; auto. lia.
    + destruct IHa as (A1 & A2 & A3 & A4). rewrite <- A3, <- A4 in Hb |- *.
      specialize (IHb w1 A1 Hb). destruct (denote b w1) as [w2 e2].
      unfold runs_to in *. cbn [psites fend]. rewrite sites_app, app_length, A2.
      destruct (cut b (w_n w1) (w_fms w1)) as [i|]; cbn [option_map].
      * destruct IHb as (Hi & B1 & B2 & B3 & B4).
        rewrite B2, <- Nat.add_succ_r, firstn_app_2. repeat split; auto; lia.
      * destruct IHb as (B1 & B2 & B3 & B4). rewrite B2, B4, A4. repeat split; auto; lia.
Qed.

(* so a guard around a tame program changes nothing: had the program died, the FMS would be
   detached and the guard would let the exception through *)
Corollary guard_transparent p w : in_flight w = false -> tame p (w_n w) (w_fms w) ->
  handle (fst (denote p w)) = fst (denote p w).
Proof. intros Hw Ht. exact (runs_to_unhandled _ _ _ _ (denote_cut p w Hw Ht)). Qed.

(* the FMS never changes: attached, nothing is fatal; detached, the first raise is *)
Fixpoint first_raise (k0 n : nat) : option nat :=
  match n with
  | O => None
  | S n' => if raises k0 then Some O else option_map S (first_raise (S k0) n')
  end.

Lemma first_raise_spec n : forall k0,
  match first_raise k0 n with
  | Some i => (i < n)%nat /\ raises (k0 + i) = true /\ (forall j, (j < i)%nat -> raises (k0 + j) = false)
  | None => forall i, (i < n)%nat -> raises (k0 + i) = false
  end.
Proof.
  induction n as [|n IH]; intros k0; cbn [first_raise]; [intros i Hi; lia|].
  destruct (raises k0) eqn:E.
  - rewrite Nat.add_0_r. repeat split; auto; lia.
  - specialize (IH (S k0)). destruct (first_raise (S k0) n) as [i|]; cbn [option_map].
    + destruct IH as (H1 & H2 & H3). rewrite <- Nat.add_succ_comm. repeat split; auto; [lia|].
      intros [|j] Hj; [rewrite Nat.add_0_r; exact E | rewrite <- Nat.add_succ_comm; apply H3; lia].
    + intros [|i] Hi; [rewrite Nat.add_0_r; exact E | rewrite <- Nat.add_succ_comm; apply IH; lia].
Qed.

Lemma first_raise_none k0 n : first_raise k0 n = None <->
  (forall i, (i < n)%nat -> raises (k0 + i) = false).
Proof.
  pose proof (first_raise_spec n k0) as S. split; intros H.
  - rewrite H in S. exact S.
  - destruct (first_raise k0 n) as [i|]; [|reflexivity]. destruct S as (Hi & R & _).
    rewrite H in R by exact Hi. discriminate.
Qed.

Lemma first_raise_some k0 n i : first_raise k0 n = Some i ->
  (i < n)%nat /\ raises (k0 + i) = true /\ (forall j, (j < i)%nat -> raises (k0 + j) = false).
Proof. intros H. pose proof (first_raise_spec n k0) as S. rewrite H in S. exact S. Qed.

Lemma first_raise_app k0 n1 n2 :
  first_raise k0 (n1 + n2) =
  match first_raise k0 n1 with
  | Some i => Some i
  | None => option_map (Nat.add n1) (first_raise (k0 + n1) n2)
  end.
Proof.
  revert k0. induction n1 as [|n1 IH]; intros k0; cbn.
  - rewrite Nat.add_0_r. destruct (first_raise k0 n2); reflexivity.
  - destruct (raises k0); [reflexivity|]. rewrite IH.
    destruct (first_raise (S k0) n1); cbn; [reflexivity|].
    replace (k0 + S n1)%nat with (S (k0 + n1))%nat by lia.
    destruct (first_raise (S (k0 + n1)) n2); reflexivity.
Qed.

(* one call: fatal iff it raises while the FMS is detached *)
Lemma cut_one_call k0 v :
  (if raises k0 && negb v then Some O else None) = if v then None else first_raise k0 1.
Proof. cbn [first_raise]. destruct v, (raises k0); reflexivity. Qed.

Lemma cut_stays v p : fms_stays v p = true -> forall k0,
  cut p k0 v = if v then None else first_raise k0 (length (psites p)).
Proof.
  induction p as [| s | j | | m | b0 | q IH | a IHa b IHb];
    cbn [fms_stays cut psites length]; intros H k0.
  - (* PNop *) destruct v; reflexivity.
  - (* PInvoke *) apply cut_one_call.
  - (* PFeedback *) apply cut_one_call.
  - (* PReset *) destruct v; reflexivity.
  - (* PMode *) destruct v; reflexivity.
  - (* PFms *) destruct v; reflexivity.
  - (* PGuard *) exact (IH H k0).
  - (* PSeq *) apply andb_true_iff in H. destruct H as [H1 H2].
    rewrite IHa, (fend_stays v a), IHb, app_length by assumption.
    destruct v; [reflexivity | symmetry; apply first_raise_app].
Qed.

(* While the FMS stays attached, a safe program runs every callback of its static call
   sequence, in order, whatever raises, and no exception escapes it. *)
Theorem safe_total p : safe p = true -> fms_stays true p = true ->
  forall w, in_flight w = false -> w_fms w = true ->
  let '(w', e) := denote p w in
  in_flight w' = false /\ sites e = psites p /\ w_n w' = (w_n w + length (psites p))%nat /\ w_fms w' = true.
Proof.
  intros Hs Hst w Hw Hf. pose proof (denote_cut p w Hw (tame_safe p Hs _ _)) as H.
  rewrite Hf, (cut_stays true p Hst) in H. unfold runs_to in H. rewrite Hf, (fend_stays true p Hst) in H.
  exact H.
Qed.

(* Without the FMS the first raising callback ends the program, guarded or not. *)
Theorem nofms_cut p : fms_stays false p = true -> forall w, in_flight w = false -> w_fms w = false ->
  let '(w', e) := denote p w in
  w_fms w' = false /\
  match first_raise (w_n w) (length (psites p)) with
  | Some i => sites e = firstn (S i) (psites p) /\ in_flight w' = true /\ w_n w' = (w_n w + S i)%nat
  | None => sites e = psites p /\ in_flight w' = false /\ w_n w' = (w_n w + length (psites p))%nat
  end.
Proof.
  intros Hst w Hw Hf. pose proof (denote_cut p w Hw) as H.
  rewrite Hf, (cut_stays false p Hst) in H. specialize (H (tame_detached p Hst _)).
  unfold runs_to in H. rewrite Hf, (fend_stays false p Hst) in H.
  destruct (denote p w) as [w' e]. destruct (first_raise (w_n w) (length (psites p))); tauto.
Qed.

End P.
