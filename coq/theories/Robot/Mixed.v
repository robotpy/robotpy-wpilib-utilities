(* The FMS gets attached / detached while the robot runs: the general form of C07.

   [fflags p v]: for a program started with FMS state [v], the FMS state in force at each
   callback of its static call sequence; [spec_fms ts] is the same list for the specified run
   ([Loop.fflags_robot]).  A raising invocation is FATAL when the FMS is not attached at that
   moment; [first_fatal] finds the first one along a list of such states, and that is where
   [Proofs.denote_cut] says the run ends. *)
From Coq Require Import ZArith List Bool Arith Lia.
From RV Require Import Robot.Model Robot.Proofs.
Import ListNotations.

Section P.
Variable c : cfg.
Variable raises : nat -> bool.
Variable writes : nat -> list (nat * nat * Z).
Variable fbval : nat -> Z.

Notation denote := (Model.denote c raises writes fbval).

Fixpoint fflags (p : prog) (v : bool) : list bool :=
  match p with
  | PInvoke _ | PFeedback _ => [v]
  | PGuard q => fflags q v
  | PSeq a b => fflags a v ++ fflags b (fend a v)
  | _ => []
  end.

(* the run: the FMS state in force at each call of the specified sequence *)
Fixpoint ticks_fms (cur : option mode) (v : bool) (ts : list tick) : list bool :=
  match ts with
  | [] => []
  | Fms b :: r => ticks_fms cur b r
  | t :: r => let '(cur', s) := tick_sites c cur t in
              repeat v (length s) ++ match t with End => [] | _ => ticks_fms cur' v r end
  end.
Definition spec_fms (ts : list tick) : list bool :=
  repeat (fms c) (length (startup_sites c)) ++ ticks_fms None (fms c) ts.

Lemma fflags_length p : forall v, length (fflags p v) = length (psites p).
Proof.
  induction p; intros v; cbn [fflags psites length]; auto.
  rewrite !app_length, IHp1, IHp2. reflexivity.
Qed.
Lemma fflags_stays v p : fms_stays v p = true -> fflags p v = repeat v (length (psites p)).
Proof.
  induction p; cbn [fms_stays fflags psites length repeat]; intros H; auto.
  apply andb_true_iff in H. destruct H as [H1 H2].
  rewrite app_length, repeat_app, IHp1, (fend_stays v p1), IHp2 by assumption. reflexivity.
Qed.

(* index of the first raising invocation that happens while the FMS is not attached *)
Fixpoint first_fatal (k0 : nat) (fl : list bool) : option nat :=
  match fl with
  | [] => None
  | f :: r => if raises k0 && negb f then Some O else option_map S (first_fatal (S k0) r)
  end.

Lemma first_fatal_spec fl : forall k0,
  match first_fatal k0 fl with
  | Some i => (i < length fl)%nat /\ raises (k0 + i) = true /\ nth i fl true = false /\
              (forall j, (j < i)%nat -> raises (k0 + j) = false \/ nth j fl true = true)
  | None => forall j, (j < length fl)%nat -> raises (k0 + j) = false \/ nth j fl true = true
  end.
Proof.
  induction fl as [|f r IH]; intros k0; cbn [first_fatal length]; [intros j Hj; lia|].
  destruct (raises k0 && negb f) eqn:E.
  - apply andb_true_iff in E. destruct E as [E1 E2]. apply negb_true_iff in E2.
    rewrite Nat.add_0_r. repeat split; auto; lia.
  - assert (H0 : raises (k0 + 0) = false \/ nth 0 (f :: r) true = true)
      by (rewrite Nat.add_0_r; cbn; destruct (raises k0), f; auto).
    specialize (IH (S k0)). destruct (first_fatal (S k0) r) as [i|]; cbn [option_map].
    + destruct IH as (H1 & H2 & H3 & H4). rewrite <- Nat.add_succ_comm. repeat split; auto; [lia|].
      intros [|j] Hj; [exact H0 | rewrite <- Nat.add_succ_comm; apply H4; lia].
    + intros [|j] Hj; [exact H0 | rewrite <- Nat.add_succ_comm; apply IH; lia].
Qed.

Lemma first_fatal_some fl : forall k0 i, first_fatal k0 fl = Some i ->
  raises (k0 + i) = true /\ nth i fl true = false /\
  (forall j, (j < i)%nat -> raises (k0 + j) = false \/ nth j fl true = true).
Proof. intros k0 i H. pose proof (first_fatal_spec fl k0) as S. rewrite H in S. apply S. Qed.
Lemma first_fatal_none fl : forall k0, first_fatal k0 fl = None <->
  (forall j, (j < length fl)%nat -> raises (k0 + j) = false \/ nth j fl true = true).
Proof.
  intros k0. pose proof (first_fatal_spec fl k0) as S. split; intros H.
  - rewrite H in S. exact S.
  - destruct (first_fatal k0 fl) as [i|]; [|reflexivity]. destruct S as (Hi & R & F & _).
    destruct (H i Hi); congruence.
Qed.
Lemma first_fatal_app a b : forall k0,
  first_fatal k0 (a ++ b) =
  match first_fatal k0 a with
  | Some i => Some i
  | None => option_map (Nat.add (length a)) (first_fatal (k0 + length a) b)
  end.
Proof.
  induction a as [|f a IH]; intros k0; cbn [app first_fatal length].
  - rewrite Nat.add_0_r. destruct (first_fatal k0 b); reflexivity.
  - destruct (raises k0 && negb f); [reflexivity|]. rewrite IH.
    destruct (first_fatal (S k0) a); cbn; [reflexivity|].
    replace (k0 + S (length a))%nat with (S (k0 + length a))%nat by lia.
    destruct (first_fatal (S (k0 + length a)) b); reflexivity.
Qed.
Lemma first_fatal_all_true n : forall k0, first_fatal k0 (repeat true n) = None.
Proof. induction n as [|n IH]; intros k0; cbn; [reflexivity|]. rewrite andb_false_r, IH. reflexivity. Qed.
Lemma first_fatal_all_false n : forall k0, first_fatal k0 (repeat false n) = first_raise raises k0 n.
Proof. induction n as [|n IH]; intros k0; cbn; [reflexivity|]. rewrite andb_true_r, IH. reflexivity. Qed.

Lemma cut_flags p : forall k0 v, cut raises p k0 v = first_fatal k0 (fflags p v).
Proof.
  induction p as [| s | j | | m | b0 | q IH | a IHa b IHb]; intros k0 v; cbn [cut fflags first_fatal].
  - (* PNop *) reflexivity.
  - (* PInvoke *) destruct (raises k0 && negb v); reflexivity.
  - (* PFeedback *) destruct (raises k0 && negb v); reflexivity.
  - (* PReset *) reflexivity.
  - (* PMode *) reflexivity.
  - (* PFms *) reflexivity.
  - (* PGuard *) apply IH.
  - (* PSeq *) rewrite first_fatal_app, fflags_length, IHa, IHb. reflexivity.
Qed.

Theorem denote_first_fatal p w : in_flight w = false -> tame raises p (w_n w) (w_fms w) ->
  runs_to p w (denote p w) (first_fatal (w_n w) (fflags p (w_fms w))).
Proof. intros Hw Ht. rewrite <- cut_flags. apply denote_cut; assumption. Qed.

Corollary denote_completes p w : in_flight w = false -> tame raises p (w_n w) (w_fms w) ->
  (w_fms w = true /\ fms_stays true p = true) \/
  (forall i, (i < length (psites p))%nat -> raises (w_n w + i) = false) ->
  runs_to p w (denote p w) None.
Proof.
  intros Hw Ht Hc. pose proof (denote_first_fatal p w Hw Ht) as H.
  replace (first_fatal _ _) with (@None nat) in H; [exact H|]. symmetry. destruct Hc as [[Hf Hs]|Hq].
  - rewrite Hf, (fflags_stays true p Hs). apply first_fatal_all_true.
  - apply first_fatal_none. intros j Hj. left. apply Hq. rewrite <- (fflags_length p (w_fms w)). exact Hj.
Qed.

End P.
