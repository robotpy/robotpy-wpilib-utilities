(* C15 -- StatefulAutonomous runs each state for its duration, in every
   autonomous period.  The statements; each is closed by the lemma of
   Stateful.Proofs (Stateful.Legacy for the refutation) that proves it, the
   examples at the end by evaluation.

   Reading guide (definitions in Stateful/Model.v):
   * [sh]            the mode definition: states (timed with default duration and
                     next_state, or untimed), the first state.
   * a history [h]   any list of OnEnable dash | OnIteration tm b | OnDisable.
                     [dash s] is the SmartDashboard entry "<MODE_NAME>\<s>_duration"
                     at that on_enable; [b] is what the state functions do when
                     called in that iteration (arbitrary, per iteration: user code
                     may depend on anything, also on earlier periods).
   * [trace sh h]    everything observable: EvCall s tm state_tm initial_call,
                     EvEnter (next_state()/done() invocations), EvErr.
   * [iter_after sh h tm b]  the events of one more on_iteration(tm) after h.
   * [status_tr tr]  where the mode stands for an observer of the events:
                     NotEnabled | Entered s (next_state(s) was the last thing that
                     happened) | Running s (s was called since) | Ended.
   * [last_call_start tr None = Some (s, st0)]  the most recent call was of s
                     and its clock (tm - state_tm) started at st0.
   * [last_dash h None = Some d]  d is the dashboard at the most recent on_enable;
                     [period_duration sh d s] the duration it gives state s
                     (the default if the entry is absent; 0xFFFFFFFF s if untimed).
   * [m : mro]       the mode CLASS: the bodies of type(self).__mro__, most derived
                     first; states may be inherited from base classes and be
                     redefined by subclasses.  [build_states inf m = inr sh]: the
                     constructor's state discovery yields the machine [sh]
                     (Section C15_mode: sh has exactly the states of the class).
   All theorems hold for EVERY shape, history and user behaviour; the only
   hypothesis on the shape is that its first state is one of its states (the
   constructor guarantees it: C15_mode_states_are_class_states); it is needed
   where on_enable or a running state's clock comes in, and the proofs that
   are not handed [Hfirst] hold of any shape (Stateful.Proofs proves those
   before its Section WithFirst).  No bound on lengths, durations or clock values;
   durations may be zero or negative, tm may be negative. *)
From Coq Require Import ZArith List Bool Lia.
From RV Require Import Stateful.Model Stateful.Proofs Stateful.Legacy.
Import ListNotations.
Open Scope Z_scope.

Section C15.
Variable sh : shape.
Hypothesis Hfirst : declared sh (sh_first sh) = true.

(* "After on_enable(), on_iteration(tm) runs the first state" -- after any
   history whatsoever, with initial_call and state_tm = 0, and nothing else. *)
Theorem C15_first_runs : forall h d tm b,
  calls (iter_after sh (h ++ [OnEnable d]) tm b) = [EvCall (sh_first sh) tm 0 true].
Proof. exact (first_runs sh Hfirst). Qed.

(* "a timed state runs on every iteration until tm exceeds its start time plus
   its duration (the dashboard value read at on_enable)": while
   tm <= start + duration the running state is called, not initially, with its
   own clock; what comes next is decided by what the function does. *)
Theorem C15_holds_until_expiry : forall h s st0 d tm b,
  status_tr (trace sh h) = Running s ->
  last_call_start (trace sh h) None = Some (s, st0) ->
  last_dash h None = Some d ->
  tm <= st0 + period_duration sh d s ->
  calls (iter_after sh h tm b) = [EvCall s tm (tm - st0) false] /\
  status_tr (trace sh (h ++ [OnIteration tm b])) =
    status_acts sh (b s tm (tm - st0) false) (Running s).
Proof. exact (holds_until_expiry sh Hfirst). Qed.

(* "and then hands over to its next_state, whose clock starts at the
   predecessor's expiry": the first iteration with tm > start + duration enters
   the successor and calls it -- once, initially, with
   state_tm = tm - (predecessor's expiry). *)
Theorem C15_hands_over_at_expiry : forall h s st0 d tm b dflt n,
  status_tr (trace sh h) = Running s ->
  last_call_start (trace sh h) None = Some (s, st0) ->
  last_dash h None = Some d ->
  st0 + period_duration sh d s < tm ->
  lookup sh s = Some (Timed dflt (Some n)) -> declared sh n = true ->
  let expiry := st0 + period_duration sh d s in
  exists rest,
    iter_after sh h tm b = EvEnter (Some n) :: EvCall n tm (tm - expiry) true :: rest /\
    calls rest = [] /\
    status_tr (trace sh (h ++ [OnIteration tm b])) =
      status_acts sh (b n tm (tm - expiry) true) (Running n).
Proof. exact (hands_over_at_expiry sh Hfirst). Qed.

(* ... so the successor's own expiry is predecessor's expiry + its duration,
   however late the iteration came (no drift along a chain). *)
Theorem C15_successor_clock : forall h s st0 d tm b dflt n,
  status_tr (trace sh h) = Running s ->
  last_call_start (trace sh h) None = Some (s, st0) ->
  last_dash h None = Some d ->
  st0 + period_duration sh d s < tm ->
  lookup sh s = Some (Timed dflt (Some n)) -> declared sh n = true ->
  last_call_start (trace sh (h ++ [OnIteration tm b])) None
    = Some (n, st0 + period_duration sh d s) /\
  last_dash (h ++ [OnIteration tm b]) None = Some d.
Proof. exact (successor_clock sh Hfirst). Qed.

(* "once the last state has expired ... nothing runs": expiry of a timed state
   without next_state ends the mode without calling anything. *)
Theorem C15_last_state_expires : forall h s st0 d tm b dflt,
  status_tr (trace sh h) = Running s ->
  last_call_start (trace sh h) None = Some (s, st0) ->
  last_dash h None = Some d ->
  st0 + period_duration sh d s < tm -> lookup sh s = Some (Timed dflt None) ->
  iter_after sh h tm b = [EvEnter None] /\
  status_tr (trace sh (h ++ [OnIteration tm b])) = Ended.
Proof. exact (last_state_expires sh Hfirst). Qed.

(* "Every state that is entered runs at least once, with initial_call True":
   whenever next_state(s) is the last thing that happened -- by on_enable, by a
   state function, by an expiry, in any period, however often s ran before and
   WHATEVER tm is -- the next iteration calls s, initially, state_tm = 0. *)
Theorem C15_entered_runs_once : forall h s tm b,
  status_tr (trace sh h) = Entered s ->
  calls (iter_after sh h tm b) = [EvCall s tm 0 true] /\
  status_tr (trace sh (h ++ [OnIteration tm b])) = status_acts sh (b s tm 0 true) (Running s).
Proof. exact (entered_runs sh). Qed.

(* "initial_call True on exactly its first call after each entry": along the
   whole trace of any history every call is of the state the observer expects
   and initial_call = true iff that state was entered and not called since. *)
Theorem C15_initial_call_discipline : forall h, init_discipline NotEnabled (trace sh h).
Proof. exact (initial_call_discipline sh). Qed.

(* "next_state() and done() take effect from the next iteration": an iteration
   calls at most one state function; what that function does only moves the
   status ... *)
Theorem C15_actions_next_iteration : forall h tm b,
  (length (calls (iter_after sh h tm b)) <= 1)%nat /\
  forall s tm' stm init, calls (iter_after sh h tm b) = [EvCall s tm' stm init] ->
    tm' = tm /\
    status_tr (trace sh (h ++ [OnIteration tm b])) = status_acts sh (b s tm stm init) (Running s).
Proof. exact (fun h tm b => conj (at_most_one_call sh h tm b) (actions_decide_status sh h tm b)). Qed.

(* ... a final next_state(n) makes the next iteration call n (initially,
   whatever its tm), *)
Theorem C15_next_state_next_iteration : forall h tm b s stm init acts n,
  calls (iter_after sh h tm b) = [EvCall s tm stm init] ->
  b s tm stm init = acts ++ [ANext n] -> valid_acts sh acts = true -> declared sh n = true ->
  forall tm2 b2, calls (iter_after sh (h ++ [OnIteration tm b]) tm2 b2) = [EvCall n tm2 0 true].
Proof. exact (next_state_next_iteration sh). Qed.

(* ... a final done() makes every later iteration of the period call nothing. *)
Theorem C15_done_next_iteration : forall h tm b s stm init acts,
  calls (iter_after sh h tm b) = [EvCall s tm stm init] ->
  b s tm stm init = acts ++ [ADone] -> valid_acts sh acts = true ->
  forall p, no_enable p -> calls (trace_from sh (final sh (h ++ [OnIteration tm b])) p) = [].
Proof. exact (done_next_iteration sh). Qed.

(* "once the last state has expired or done() was called nothing runs until
   the next on_enable()" -- for every continuation without on_enable; the next
   on_enable starts over (C15_first_runs). *)
Theorem C15_after_end_nothing : forall h p,
  status_tr (trace sh h) = Ended -> no_enable p ->
  calls (trace_from sh (final sh h) p) = [] /\ status_tr (trace sh (h ++ p)) = Ended.
Proof. exact (after_end_nothing sh). Qed.

(* "state_tm is non-negative": for clock readings that do not decrease inside
   a period (nothing is assumed across periods, nor about signs). *)
Theorem C15_state_tm_nonneg : forall h, mono None h -> Forall nonneg_ev (trace sh h).
Proof. exact (state_tm_nonneg sh Hfirst). Qed.

(* "This holds equally in a second or later autonomous period ... independent
   of what happened in earlier runs": after ANY history h, the period started
   by on_enable produces exactly the events it produces on a fresh instance --
   although ran/start_time/expires live on the class-level wrappers that h
   left in an arbitrary condition. *)
Theorem C15_period_independent : forall h d p,
  trace sh (h ++ OnEnable d :: p) = trace sh h ++ trace sh (OnEnable d :: p).
Proof. exact (period_independent_trace sh Hfirst). Qed.

(* "... and when a state is re-entered": once s is entered, the future depends
   on the durations in force only, not on how s or any other state ran before. *)
Theorem C15_reentry_independent : forall h1 h2 s p,
  status_tr (trace sh h1) = Entered s -> status_tr (trace sh h2) = Entered s ->
  (forall x, duration_of sh (final sh h1) x = duration_of sh (final sh h2) x) ->
  trace_from sh (final sh h1) p = trace_from sh (final sh h2) p.
Proof. exact (reentry_independent sh Hfirst). Qed.

(* The observer's bookkeeping used above is sound: it is the machine's. *)
Theorem C15_status_observable : forall h, status_of (final sh h) = status_tr (trace sh h).
Proof. exact (status_observable sh). Qed.

(* A running state always has a clock and a dashboard it was read from ... *)
Theorem C15_running_has_clock : forall h s, status_tr (trace sh h) = Running s ->
  exists st0 d, last_call_start (trace sh h) None = Some (s, st0) /\ last_dash h None = Some d.
Proof. exact (running_has_clock sh Hfirst). Qed.

(* ... and they are what the code stored: start_time, and
   expires = start_time + the dashboard value read at the last on_enable. *)
Theorem C15_expiry_observable : forall h s st0 d, status_tr (trace sh h) = Running s ->
  last_call_start (trace sh h) None = Some (s, st0) -> last_dash h None = Some d ->
  st_start (sdat (final sh h) s) = st0 /\
  st_exp (sdat (final sh h) s) = st0 + period_duration sh d s.
Proof. exact (expiry_observable sh Hfirst). Qed.

(* An untimed state "never expires" = 0xFFFFFFFF s after its start; beyond
   that the code raises AttributeError (no next_state attribute) -- visible,
   not silently wrong. *)
Theorem C15_untimed_overflow : forall h s st0 d tm b, status_tr (trace sh h) = Running s ->
  last_call_start (trace sh h) None = Some (s, st0) -> last_dash h None = Some d ->
  st0 + sh_inf sh < tm -> lookup sh s = Some Untimed ->
  iter_after sh h tm b = [EvErr ErrAttr].
Proof. exact (untimed_overflow sh Hfirst). Qed.

End C15.

(* ---------------- the mode CLASS: inherited states ----------------
   A mode is a Python class; [m : mro] lists the bodies of type(self).__mro__,
   most derived first.  A state may be defined in the concrete class or in any
   base class (e.g. a shared "settle -> shoot" tail in a common base mode), and
   a subclass may redefine a name.  [class_getattr m n] is getattr(cls, n);
   [build_states inf m] is the constructor's state discovery (__build_states):
   [inr sh] = the mode object exists and runs as the machine [sh] of the
   theorems above; [inl _] = ValueError.  [is_first m n]: getattr(cls, n) is a
   state declared first=True;  [is_state m n]: it is a state at all. *)

(* The constructor succeeds exactly when the class has one first state --
   counting inherited states, and not counting definitions a subclass has
   replaced ... *)
Theorem C15_ctor_constructs : forall inf m,
  (exists sh, build_states inf m = inr sh) <->
  (exists f, is_first m f = true /\ forall n, is_first m n = true -> n = f).
Proof. exact build_states_constructs. Qed.

Theorem C15_ctor_rejects_no_first : forall inf m,
  build_states inf m = inl NoFirst <-> forall n, is_first m n = false.
Proof. exact build_states_no_first. Qed.

Theorem C15_ctor_rejects_multiple_first : forall inf m,
  build_states inf m = inl MultipleFirst <->
  exists a b, a <> b /\ is_first m a = true /\ is_first m b = true.
Proof. exact build_states_multiple_first. Qed.

Section C15_mode.
Variable inf : Z.
Variable m : mro.
Variable sh : shape.
Hypothesis Hbuilt : build_states inf m = inr sh.

(* ... and then the machine's states are EXACTLY the states of the class:
   every name that getattr(cls, .) resolves to a state -- defined in the
   concrete class or inherited from a base at any depth -- is a state of the
   mode with the declaration (default duration, next_state) of its most derived
   definition, so its "<MODE_NAME>\<s>_duration" entry is among those read at
   on_enable; nothing else is; the first state is the class's first state; the
   hypothesis of the theorems of Section C15 holds. *)
Theorem C15_mode_states_are_class_states :
  (forall n, lookup sh n = state_decl (class_getattr m n)) /\
  is_first m (sh_first sh) = true /\
  (forall n, is_first m n = true -> n = sh_first sh) /\
  declared sh (sh_first sh) = true /\
  sh_inf sh = inf.
Proof. exact (build_states_ok inf m sh Hbuilt). Qed.

(* The clauses again, with every hypothesis about a state read from the class
   ([mode_duration inf m d s]: dashboard value of s in a period enabled with d,
   else the default of the most derived definition of s, wherever it is). *)
Theorem C15_mode_first_runs : forall h d tm b,
  is_first m (sh_first sh) = true /\
  calls (iter_after sh (h ++ [OnEnable d]) tm b) = [EvCall (sh_first sh) tm 0 true].
Proof. exact (mode_first_runs inf m sh Hbuilt). Qed.

Theorem C15_mode_holds_until_expiry : forall h s st0 d tm b,
  status_tr (trace sh h) = Running s ->
  last_call_start (trace sh h) None = Some (s, st0) ->
  last_dash h None = Some d ->
  tm <= st0 + mode_duration inf m d s ->
  calls (iter_after sh h tm b) = [EvCall s tm (tm - st0) false] /\
  status_tr (trace sh (h ++ [OnIteration tm b])) =
    status_acts sh (b s tm (tm - st0) false) (Running s).
Proof. exact (mode_holds_until_expiry inf m sh Hbuilt). Qed.

Theorem C15_mode_hands_over_at_expiry : forall h s st0 d tm b dflt n f,
  status_tr (trace sh h) = Running s ->
  last_call_start (trace sh h) None = Some (s, st0) ->
  last_dash h None = Some d ->
  st0 + mode_duration inf m d s < tm ->
  class_getattr m s = Some (AState (Timed dflt (Some n)) f) -> is_state m n = true ->
  let expiry := st0 + mode_duration inf m d s in
  exists rest,
    iter_after sh h tm b = EvEnter (Some n) :: EvCall n tm (tm - expiry) true :: rest /\
    calls rest = [] /\
    status_tr (trace sh (h ++ [OnIteration tm b])) =
      status_acts sh (b n tm (tm - expiry) true) (Running n) /\
    last_call_start (trace sh (h ++ [OnIteration tm b])) None = Some (n, expiry).
Proof. exact (mode_hands_over_at_expiry inf m sh Hbuilt). Qed.

Theorem C15_mode_last_state_expires : forall h s st0 d tm b dflt f,
  status_tr (trace sh h) = Running s ->
  last_call_start (trace sh h) None = Some (s, st0) ->
  last_dash h None = Some d ->
  st0 + mode_duration inf m d s < tm ->
  class_getattr m s = Some (AState (Timed dflt None) f) ->
  iter_after sh h tm b = [EvEnter None] /\
  status_tr (trace sh (h ++ [OnIteration tm b])) = Ended.
Proof. exact (mode_last_state_expires inf m sh Hbuilt). Qed.

End C15_mode.

(* The pre-repair expiry test (no `ran` guard) violates the property: D6. *)
Theorem C15_legacy_refuted_D6 :
  exists sh h s tm b,
    declared sh (sh_first sh) = true /\
    mono None (h ++ [OnIteration tm b]) /\
    status_tr (trace_legacy sh h) = Entered s /\
    calls (snd (on_iteration_legacy sh (final_legacy sh h) tm b)) <> [EvCall s tm 0 true].
Proof. exact C15_legacy_refuted. Qed.

(* ---------------- non-vacuity ---------------- *)
(* a (0): timed 1 s -> b, first;  b (1): untimed, goes to c when state_tm >= 0.5 s;
   c (2): timed 0.5 s -> a (a loop), calls done() when tm >= 6 s.  Ticks of 1/64 s. *)
Definition ex_sh : shape :=
  {| sh_states := [(0%nat, Timed 64 (Some 1%nat)); (1%nat, Untimed); (2%nat, Timed 32 (Some 0%nat))];
     sh_first := 0%nat; sh_inf := 4294967295 * 64 |}.
Definition ex_body : ubody := fun s tm stm init =>
  if Nat.eqb s 1 && (32 <=? stm) then [ANext 2%nat]
  else if Nat.eqb s 2 && (384 <=? tm) then [ADone] else [].
Definition ex_dash : name -> option Z := fun s => if Nat.eqb s 0 then Some 96 else None.
Definition ex_iters (tms : list Z) : list op := map (fun t => OnIteration t ex_body) tms.
(* period 1 with defaults, disabled, period 2 with a's duration edited to 1.5 s *)
Definition ex_p1 : list op := OnEnable (fun _ => None) :: ex_iters [0; 16; 64; 80; 200; 216; 232; 400; 416] ++ [OnDisable].
Definition ex_h : list op := ex_p1 ++ OnEnable ex_dash :: ex_iters [0; 50; 96].

Example C15_nv_shape : declared ex_sh (sh_first ex_sh) = true.
Proof. reflexivity. Qed.
Example C15_nv_mono : mono None (ex_h ++ ex_iters [97; 97; 130; 170; 171; 400; 500; 540]).
Proof. cbn. lia. Qed.
(* the monotonicity hypothesis of C15_state_tm_nonneg is needed: a clock that
   runs backwards inside a period gives a negative state_tm *)
Example C15_nonneg_needs_mono :
  calls (trace ex_sh [OnEnable (fun _ => None); OnIteration 10 ex_body; OnIteration 5 ex_body])
  = [EvCall 0%nat 10 0 true; EvCall 0%nat 5 (-5) false].
Proof. vm_compute. reflexivity. Qed.
(* premises of holds / hands_over are met: a is running in period 2, started
   at 0, edited duration 96 *)
Example C15_nv_running :
  status_tr (trace ex_sh ex_h) = Running 0%nat /\
  last_call_start (trace ex_sh ex_h) None = Some (0%nat, 0) /\
  (exists d, last_dash ex_h None = Some d /\ period_duration ex_sh d 0%nat = 96) /\
  lookup ex_sh 0%nat = Some (Timed 64 (Some 1%nat)) /\ declared ex_sh 1%nat = true.
Proof. repeat split; try (vm_compute; reflexivity). exists ex_dash. split; reflexivity. Qed.
(* and the conclusions are the interesting ones: hand-over at 97 with state_tm 1 *)
Example C15_nv_handover :
  iter_after ex_sh ex_h 97 ex_body = [EvEnter (Some 1%nat); EvCall 1%nat 97 1 true].
Proof. vm_compute. reflexivity. Qed.
(* premise of entered_runs_once (by a state function's next_state) *)
Example C15_nv_entered :
  status_tr (trace ex_sh (ex_h ++ ex_iters [97; 97; 130])) = Entered 2%nat.
Proof. vm_compute. reflexivity. Qed.
(* premise of after_end_nothing (by done()) and of last-state/loop behaviour *)
Example C15_nv_ended :
  status_tr (trace ex_sh (ex_h ++ ex_iters [97; 97; 130; 170; 171; 400; 500; 540])) = Ended /\
  no_enable (ex_iters [541; 600]).
Proof. split; [vm_compute; reflexivity|repeat constructor]. Qed.
(* the whole trace of the example, period 1 (a -> b -> c -> a -> b, then disabled) *)
Example C15_nv_trace_p1 :
  calls (trace ex_sh ex_p1) =
  [EvCall 0%nat 0 0 true; EvCall 0%nat 16 16 false; EvCall 0%nat 64 64 false;
   EvCall 1%nat 80 16 true; EvCall 1%nat 200 136 false;
   EvCall 2%nat 216 0 true; EvCall 2%nat 232 16 false;
   EvCall 0%nat 400 152 true; EvCall 1%nat 416 104 true].
Proof. vm_compute. reflexivity. Qed.

(* a mode CLASS with inheritance: the concrete class defines drive (3): timed
   1 s -> settle, first, and REPLACES the base's old first state (6) by a plain
   attribute; its base defines settle (4): timed 0.5 s -> shoot, shoot (5):
   timed 0.75 s, and that old first state 6; a grand-base defines another
   settle (4, 2 s, no successor) which the base's definition hides. *)
Definition ex_mro : mro :=
  [ [(3%nat, AState (Timed 64 (Some 4%nat)) true); (6%nat, AOther)];
    [(4%nat, AState (Timed 32 (Some 5%nat)) false); (5%nat, AState (Timed 48 None) false);
     (6%nat, AState Untimed true)];
    [(4%nat, AState (Timed 128 None) false); (7%nat, AOther)] ].
Definition ex_msh : shape :=
  {| sh_states := [(3%nat, Timed 64 (Some 4%nat)); (5%nat, Timed 48 None); (4%nat, Timed 32 (Some 5%nat))];
     sh_first := 3%nat; sh_inf := 4294967295 * 64 |}.
Example C15_nv_mode_built : build_states (4294967295 * 64) ex_mro = inr ex_msh.
Proof. vm_compute. reflexivity. Qed.
(* settle is inherited, its dashboard entry edited to 0.25 s: it is held until
   64 + 16 and hands over to the inherited shoot with the clock at 80 *)
Definition ex_mdash : name -> option Z := fun s => if Nat.eqb s 4 then Some 16 else None.
Example C15_nv_mode_trace :
  calls (trace ex_msh (OnEnable ex_mdash :: map (fun t => OnIteration t (fun _ _ _ _ => [])) [0; 64; 65; 80; 81; 128; 129])) =
  [EvCall 3%nat 0 0 true; EvCall 3%nat 64 64 false; EvCall 4%nat 65 1 true; EvCall 4%nat 80 16 false;
   EvCall 5%nat 81 1 true; EvCall 5%nat 128 48 false] /\
  mode_duration (4294967295 * 64) ex_mro ex_mdash 4%nat = 16 /\
  class_getattr ex_mro 4%nat = Some (AState (Timed 32 (Some 5%nat)) false) /\ is_state ex_mro 5%nat = true.
Proof. vm_compute. repeat split; reflexivity. Qed.
(* without the subclass's replacement of 6 the class has two first states *)
Example C15_nv_mode_two_firsts :
  build_states (4294967295 * 64) ([(3%nat, AState (Timed 64 (Some 4%nat)) true)] :: tl ex_mro) = inl MultipleFirst /\
  build_states (4294967295 * 64) [[(4%nat, AState (Timed 32 None) false)]] = inl NoFirst.
Proof. vm_compute. split; reflexivity. Qed.

Print Assumptions C15_first_runs.
Print Assumptions C15_holds_until_expiry.
Print Assumptions C15_hands_over_at_expiry.
Print Assumptions C15_successor_clock.
Print Assumptions C15_last_state_expires.
Print Assumptions C15_entered_runs_once.
Print Assumptions C15_initial_call_discipline.
Print Assumptions C15_actions_next_iteration.
Print Assumptions C15_next_state_next_iteration.
Print Assumptions C15_done_next_iteration.
Print Assumptions C15_after_end_nothing.
Print Assumptions C15_state_tm_nonneg.
Print Assumptions C15_period_independent.
Print Assumptions C15_reentry_independent.
Print Assumptions C15_status_observable.
Print Assumptions C15_running_has_clock.
Print Assumptions C15_expiry_observable.
Print Assumptions C15_untimed_overflow.
Print Assumptions C15_ctor_constructs.
Print Assumptions C15_ctor_rejects_no_first.
Print Assumptions C15_ctor_rejects_multiple_first.
Print Assumptions C15_mode_states_are_class_states.
Print Assumptions C15_mode_first_runs.
Print Assumptions C15_mode_holds_until_expiry.
Print Assumptions C15_mode_hands_over_at_expiry.
Print Assumptions C15_mode_last_state_expires.
Print Assumptions C15_legacy_refuted_D6.
