(* C04 -- Stopping a StateMachine always goes through done() and resets it.

   [engaged] is is_executing, [nt_cur] is the current_state tunable (None = ''),
   EvDone is an invocation of done() (observable by overriding it).
   Statements only. *)
From Coq Require Import ZArith List Bool.
From RV Require Import SM.Model SM.Basics SM.Engage SM.Invariants SM.Stop SM.Timing SM.Auto SM.Check SM.Examples.
Import ListNotations.
Open Scope Z_scope.

Section C04.
Variable sh : shape.
Variable body : nat -> name -> Z -> Z -> bool -> list action.

(* whatever operation takes is_executing from True to False -- done(), on_disable(),
   an iteration in which engage() stopped being called outside a must_finish state,
   the expiry of the last timed state, a done() inside a state function at any
   nesting depth -- done() was invoked.  No contract needed, any machine state. *)
Theorem C04_stop_calls_done : forall fuel m o,
  engaged m = true -> engaged (fst (step sh body fuel m o)) = false ->
  In EvDone (snd (step sh body fuel m o)).
Proof. exact (stop_calls_done sh body). Qed.

(* done() / on_disable() stop the machine at once *)
Theorem C04_done_resets : forall m,
  engaged (done sh m) = false /\ cur (done sh m) = None /\ nt_cur (done sh m) = None.
Proof. exact (fun m => conj (done_engaged sh m) (conj (done_cur sh m) (done_nt sh m))). Qed.

(* in every reachable state that is not executing and has no pending request,
   current_state is '' and the machine is at no state or at the default state *)
Theorem C04_stopped_status : forall fuel h m0 , wf_shape sh -> Inv sh m0 ->
  ok (trace_of (snd (run sh body fuel m0 h))) ->
  let m := fst (run sh body fuel m0 h) in
  engaged m = false -> should m = false ->
  nt_cur m = None /\ (cur m = None \/ at_default sh m = true).
Proof.
  exact (fun fuel h m0 Hwf HI Hok =>
    stopped_status sh _ (proj1 (run_inv sh body Hwf fuel h m0 HI Hok))).
Qed.

(* while regular states are running: is_executing is True and current_state names
   the machine's state, which is the one that runs next (C02_holds_until_expiry /
   C02_entered_runs_once) and is not the default state *)
Theorem C04_running_status : forall fuel h m0, wf_shape sh -> Inv sh m0 ->
  ok (trace_of (snd (run sh body fuel m0 h))) ->
  let m := fst (run sh body fuel m0 h) in
  engaged m = true ->
  exists s, cur m = Some s /\ nt_cur m = Some s /\ is_default sh s = false.
Proof.
  exact (fun fuel h m0 Hwf HI Hok =>
    running_status sh _ (proj1 (run_inv sh body Hwf fuel h m0 HI Hok))).
Qed.

(* after a stop no regular state function runs until engage() is called again
   (the statement of C01_idle_until_engage) *)
Theorem C04_nothing_until_engage : forall fuel h m, wf_shape sh ->
  Idle sh m -> forallb no_engage_op h = true ->
  ok (trace_of (snd (run sh body (S fuel) m h))) ->
  Idle sh (fst (run sh body (S fuel) m h)) /\
  forall s tm stm i e, In (EvCall s tm stm i e) (trace_of (snd (run sh body (S fuel) m h))) ->
    is_default sh s = true /\ e = false.
Proof.
  exact (fun fuel h m Hwf HI Hp Hok =>
    let H := idle_until_engage sh body Hwf (S fuel) h m HI Hp Hok in
    conj (proj1 H) (calls_in _ _ (proj2 H))).
Qed.

(* the next engage() then starts at the first state, or at the requested
   initial_state, with initial_call True and tm restarting at zero (the
   statement of C03_tm_starts_at_zero) *)
Theorem C04_restart_fresh : forall nested m now init force,
  engaged m = false -> (cur m = None \/ at_default sh m = true) -> clk m <= now ->
  let tgt := match init with Some s => s | None => sh_first sh end in
  is_state sh tgt = true -> is_default sh tgt = false ->
  let m1 := fst (engage sh m init force) in
  snd (engage sh m init force) = [EvEnter tgt] /\
  exists m2 e,
    exec_step sh body nested m1 now =
    (m2, EvBk tgt (now + 0) (now + (0 + duration_of sh m tgt)) :: EvCall tgt 0 0 true true :: e).
Proof. exact (restart_fresh sh body). Qed.
End C04.

(* Non-vacuity: in the example history the machine stops three times (no engage
   after a must_finish state, done() inside a state function, external done()),
   each time with EvDone, '' and not executing, and restarts fresh afterwards. *)
Example C04_nv_stops :
  let tr := snd (run (ex_shape false) ex_body 8 ex_init ex_hist) in
  In EvDone (nth 10 tr []) /\ In EvDone (nth 13 tr []) /\ nth 16 tr [] = [EvDone] /\
  (let m := fst (run (ex_shape false) ex_body 8 ex_init (firstn 11 ex_hist)) in
   engaged m = false /\ should m = false /\ nt_cur m = None /\ at_default (ex_shape false) m = true) /\
  nth 15 tr [] = [EvBk 0%nat 31 39; EvCall 0%nat 0 0 true true].
Proof. vm_compute. intuition. Qed.

Print Assumptions C04_stop_calls_done.
Print Assumptions C04_done_resets.
Print Assumptions C04_stopped_status.
Print Assumptions C04_running_status.
Print Assumptions C04_nothing_until_engage.
Print Assumptions C04_restart_fresh.
