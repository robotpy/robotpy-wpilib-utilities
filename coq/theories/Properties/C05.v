(* C05 -- MagicRobot runs mode code, components, feedbacks, robotPeriodic in fixed order.

   Model: Robot.Model -- the framework code of magicrobot.py / selector.run() as
   guarded programs, executed over a history of loop wake-ups (one [Tick] = the
   driver-station word seen at that wake-up, [End] = endCompetition()).
   [spec_sites c ts] is the specification: the sequence of user callbacks.
   [raises]/[writes]/[fbval] are arbitrary user behaviour, per invocation.
   The time axis (after the section): Delay.Model, the NotifierDelay of C16, driven by the
   mode loop as Robot/Period.v describes it -- one pass, then wait(), with wake-ups on time
   ([wait_log]) or late ([jlog]).  Statements; the proofs are in Robot/. *)
From Coq Require Import ZArith List Bool.
From RV Require Import Robot.Model Robot.Proofs Robot.Loop Robot.Lifecycle Robot.Examples Robot.Period.
From RV Require Delay.Model.
Import ListNotations.
Open Scope Z_scope.

Section C05.
Variable c : cfg.
Variable raises : nat -> bool.
Variable writes : nat -> list (nat * nat * Z).
Variable fbval : nat -> Z.

(* the robot makes exactly the specified calls, in the specified order, for every layout and
   every sequence of mode changes, while the FMS stays attached and no setup() raises --
   whatever else raises.  This is the statement of C07_fms_every_callback_still_runs (both are
   [Loop.run_fms]); a robot that never raises is raises = fun _ => false, for which
   [setup_quiet] holds trivially. *)
Theorem C05_calls_are_the_specified_sequence : forall ts, fms c = true -> fms_ticks_stay true ts = true -> setup_quiet c raises ->
  sites (snd (robot_run c raises writes fbval ts)) = spec_sites c ts
  /\ in_flight (fst (robot_run c raises writes fbval ts)) = false.
Proof. exact (fun ts => run_fms c raises writes fbval ts). Qed.

(* the specification of one loop pass, mode by mode: the mode's own code first,
   then execute() of every component in declaration order, then the feedbacks,
   then robotPeriodic *)
Theorem C05_iteration_order :
  iter_sites c Teleop = [SPeriodic Teleop] ++ map SExecute (seq 0 (ncomp c)) ++ map SFeedback (seq 0 (nfb c)) ++ [SRobotPeriodic]
  /\ iter_sites c Auto = (if has_auto c then [SAutoIter] else []) ++ (if teleop_in_auto c then [SPeriodic Teleop] else [])
                         ++ map SExecute (seq 0 (ncomp c)) ++ map SFeedback (seq 0 (nfb c)) ++ [SRobotPeriodic]
  /\ iter_sites c Disabled = [SPeriodic Disabled] ++ map SFeedback (seq 0 (nfb c)) ++ [SRobotPeriodic]
  /\ iter_sites c Test = [SPeriodic Test] ++ map SFeedback (seq 0 (nfb c)) ++ [SRobotPeriodic].
Proof. exact (conj eq_refl (conj eq_refl (conj eq_refl eq_refl))). Qed.

(* execute() of every component exactly once per teleop/autonomous pass, never in
   a disabled or test pass *)
Theorem C05_execute_once_when_enabled_never_otherwise : forall m i, (i < ncomp c)%nat ->
  count_occ site_eq_dec (iter_sites c m) (SExecute i) = if enabled_mode_b m then 1%nat else 0%nat.
Proof. exact (execute_per_iteration c). Qed.

(* one wake-up = one pass: staying in the mode runs exactly one pass of it; a mode
   change leaves the old mode, enters the new one and runs its first pass at once
   (which mode: startCompetition's dispatch; when a loop is left: its own test) *)
Theorem C05_one_pass_per_wakeup : forall m en au te,
  tick_sites c (Some m) (Tick en au te) =
  if stays m en au te then (Some m, iter_sites c m)
  else (Some (dispatch en au te), leave_sites c m ++ enter_sites c (dispatch en au te) ++ iter_sites c (dispatch en au te)).
Proof. exact (fun m en au te => eq_refl). Qed.

(* /robot/mode names the mode being run: entering a mode writes it first *)
Theorem C05_mode_written_on_entry : forall m,
  exists rest, enter c m = PSeq (PMode m) rest.
Proof. exact (fun m => match m with Disabled | Auto | Teleop | Test => ex_intro _ _ eq_refl end). Qed.
End C05.

(* Within a mode exactly one pass happens per control_loop_wait_time of FPGA time: the mode loop
   creates its NotifierDelay (period p microseconds) at entry time t0, runs a pass, calls wait(),
   and so on (the Delay model of C16: a schedule of pass durations [bs]).  Whenever no pass -- the
   first one includes the mode's entry code -- takes longer than the period, the wait after pass i
   returns, i.e. pass i+1 starts, exactly at t0 + (i+1)*p.  (Overruns: C16_catches_up.) *)
Theorem C05_one_iteration_per_period : forall p t0 bs, 0 <= p ->
  (forall i b, nth_error bs i = Some b -> 0 <= b <= p) ->
  forall i c r,
    nth_error (Delay.Model.wait_log (Delay.Model.create p t0, t0) (Delay.Model.sched bs)) i = Some (c, r) ->
    r = Delay.Model.grid t0 p (S i).
Proof. exact (fun p t0 bs _ => passes_on_grid p t0 bs). Qed.

(* The same with late wake-ups (the loop thread is rescheduled [late_i] us after its alarm):
   [bl] lists, per pass, its duration and the lateness of the wake-up that follows it.  Whatever
   the passes and wake-ups do, the alarm programmed by the i-th wait() is the grid point i+2 ... *)
Theorem C05_alarms_never_leave_the_grid : forall p t0 bl,
  map snd (jlog (Delay.Model.create p t0, t0) (jsched bl)) = alarms_from (t0 + p) p (length bl).
Proof. exact loop_alarms_on_grid. Qed.

Theorem C05_alarms_from_is_the_grid : forall e p n i, (i < n)%nat ->
  nth_error (alarms_from e p n) i = Some (Some (e + Z.of_nat (S i) * p)).
Proof. exact alarms_from_nth. Qed.

(* ... and as long as every pass plus the lateness of the wake-up before it fits in the period
   ([fits]), the i-th wake-up happens in the i-th grid cell, exactly [late_i] after its start:
   lateness never accumulates, one pass per period *)
Theorem C05_one_iteration_per_period_late_wakeups : forall p t0 bl, fits p 0 bl ->
  forall i c r a, nth_error (jlog (Delay.Model.create p t0, t0) (jsched bl)) i = Some (c, r, a) ->
  exists b l, nth_error bl i = Some (b, l) /\ r = Delay.Model.grid t0 p (S i) + l
              /\ a = Some (Delay.Model.grid t0 p (S (S i))).
Proof. exact wakes_in_their_cells. Qed.

Example C05_late_nv :
  fits 20000 0 [(3000, 4000); (9000, 6000); (14000, 0)]
  /\ jlog (Delay.Model.create 20000 100, 100) (jsched [(3000, 4000); (9000, 6000); (14000, 0)])
     = [(3100, 24100, Some 40100); (33100, 46100, Some 60100); (60100, 60100, Some 80100)].
Proof. split; [cbn; repeat split; discriminate | reflexivity]. Qed.

(* Non-vacuity: the example robot through disabled, teleop x2, autonomous, test, disabled, end;
   robotPeriodic sees /robot/mode = the running mode in every pass (also under faults) *)
Example C05_nv :
  map (fun e => match e with EvRP m _ _ => m | _ => None end)
      (filter (fun e => match e with EvRP _ _ _ => true | _ => false end) (snd (ex_run true)))
  = [Some Disabled; Some Teleop; Some Teleop; Some Auto; Some Test; Some Disabled]
  /\ sites (snd (ex_run true)) = spec_sites (ex_cfg true) ex_ticks
  /\ length (spec_sites (ex_cfg true) ex_ticks) = 53%nat.
Proof. vm_compute. repeat split. Qed.

Print Assumptions C05_calls_are_the_specified_sequence.
Print Assumptions C05_iteration_order.
Print Assumptions C05_execute_once_when_enabled_never_otherwise.
Print Assumptions C05_one_pass_per_wakeup.
Print Assumptions C05_mode_written_on_entry.
Print Assumptions C05_one_iteration_per_period.
Print Assumptions C05_alarms_never_leave_the_grid.
Print Assumptions C05_alarms_from_is_the_grid.
Print Assumptions C05_one_iteration_per_period_late_wakeups.
