(* C19 -- Toggle flips once per press; debouncers and rate limiters fire once
   per period.  Statements; every proof is [exact <lemma of Control.*>] or a
   line or two from a more general one, and the examples at the end are
   evaluated.

   Vocabulary (Control/Machine.v, Toggle.v, Debounce.v, Filter.v, Watchdog.v):
     [run step s h]   all results of the calls [h] made on an object in state [s]
     [out step s h o] the result of the call [o] made after the calls [h]
     [value p h]      the Toggle's value after the samples [h] (p = None: no
                      debounce; Some p: debounce period p)
     [deb_result p h now lvl]  ButtonDebouncer(period p).get() at clock [now],
                      button at [lvl], after the calls [h]
     [passes per byp h r]      PeriodicFilter(per, byp).filter(r) after records [h]
     [expired t0 h now], [warns t0 h now]  SimpleWatchdog(t0 us): isExpired() /
                      "printIfExpired() logs its warning" at clock [now] after [h]
     [mono l] / [mono_from t l]  clock readings never go backwards (and start
                      at or after [t])
   Clock readings, periods and timeouts are integer ticks (microseconds for
   the watchdog); every statement is for every history of every length. *)
From Coq Require Import ZArith List Bool Lia.
From RV Require Import Control.Machine Control.MachineProofs
  Control.Toggle Control.ToggleProofs Control.Debounce Control.DebounceProofs
  Control.Filter Control.FilterProofs Control.Watchdog Control.WatchdogProofs.
Import ListNotations.
Open Scope Z_scope.

(* the correspondence run compares [run ...] with the implementation; the
   k-th result is the call's [out] after the first k calls *)
Theorem C19_trace_is_outs : forall (St Op Res : Type) (step : St -> Op -> St * Res) h s k o,
  nth_error h k = Some o ->
  nth_error (run step s h) k = Some (out step s (firstn k h) o).
Proof. exact (fun St Op Res step => run_nth step). Qed.

(* whichever accessor takes the sample (get(), .on, .off, bool()), it reports
   the value after that sample: get/on/bool the value, off its negation *)
Theorem C19_toggle_accessors_report_value : forall p h s,
  out toggle_sample (toggle_new p) h s = shows (s_acc s) (value p (h ++ [s])).
Proof. exact accessors_report_value. Qed.

(* any accessor takes a sample: the state afterwards does not depend on which *)
Theorem C19_toggle_any_accessor_samples : forall p h s a,
  reach toggle_sample (toggle_new p) (h ++ [with_acc s a]) =
  reach toggle_sample (toggle_new p) (h ++ [s]).
Proof. exact any_accessor_samples. Qed.

(* on is always the negation of off (with or without debounce) *)
Theorem C19_toggle_on_is_not_off : forall p h now lvl,
  out toggle_sample (toggle_new p) h (mkSample now lvl AOn) =
  negb (out toggle_sample (toggle_new p) h (mkSample now lvl AOff)).
Proof. intros. rewrite !out_any_accessor. symmetry. apply negb_involutive. Qed.

Theorem C19_toggle_get_on_bool_agree : forall p h now lvl,
  out toggle_sample (toggle_new p) h (mkSample now lvl AGet) =
  out toggle_sample (toggle_new p) h (mkSample now lvl AOn) /\
  out toggle_sample (toggle_new p) h (mkSample now lvl ABool) =
  out toggle_sample (toggle_new p) h (mkSample now lvl AOn).
Proof. intros. rewrite !out_any_accessor. split; reflexivity. Qed.

(* without debounce: the value is the parity of the released->pressed edges
   among the sampled levels (the button counts as released before the first
   sample); no hypothesis on the clock *)
Theorem C19_toggle_parity : forall h,
  value None h = Nat.odd (rising false (map s_level h)).
Proof. exact (value_parity None). Qed.

(* ... hence it changes at a sample exactly when that sample reads "pressed"
   and the previous one read "released" *)
Theorem C19_toggle_changes_exactly_at_rising_edges : forall h s,
  value None (h ++ [s]) <> value None h <->
  (s_level s = true /\ last (map s_level h) false = false).
Proof. exact (value_change None). Qed.

(* never while the button is held (or stays released) ... *)
Theorem C19_toggle_no_change_while_level_steady : forall h s,
  s_level s = last (map s_level h) false -> value None (h ++ [s]) = value None h.
Proof.
  intros h s H. rewrite (value_step None). cbn [cur seen].
  rewrite H, andb_negb_r. apply xorb_false_r.
Qed.

(* ... and never on a sample that reads "released" *)
Theorem C19_toggle_no_change_on_release : forall h s,
  s_level s = false -> value None (h ++ [s]) = value None h.
Proof. intros h s H. rewrite (value_step None). cbn [cur]. rewrite H. apply xorb_false_r. Qed.

(* with a debounce period p (any sign): the same edge counting on the levels
   the _SteadyDebounce lets through *)
Theorem C19_toggle_debounce_parity : forall p h,
  value (Some p) h = Nat.odd (rising false (debounced p h)).
Proof. exact (fun p => value_parity (Some p)). Qed.

(* two changes are never less than p apart: for clock readings that start at
   or after 0 (FPGA time) and never go backwards, a change at sample s1 and a
   later change at sample s2 are at least p apart *)
Theorem C19_toggle_debounce_spacing : forall p h1 s1 h2 s2,
  mono_from 0 (map s_now (h1 ++ s1 :: h2 ++ [s2])) ->
  value (Some p) (h1 ++ [s1]) <> value (Some p) h1 ->
  value (Some p) (h1 ++ s1 :: h2 ++ [s2]) <> value (Some p) (h1 ++ s1 :: h2) ->
  s_now s2 - s_now s1 >= p.
Proof. exact toggle_debounce_spacing. Qed.

(* a change happens only on a sample that reads the button pressed *)
Theorem C19_toggle_debounce_change_needs_press : forall p h s,
  mono_from 0 (map s_now (h ++ [s])) ->
  value (Some p) (h ++ [s]) <> value (Some p) h ->
  s_level s = true.
Proof. exact (fun p h s Hm Hc => proj1 (debounce_change p h s Hm Hc)). Qed.

(* the _SteadyDebounce never reads a pressed button as released: a sample
   that reads the raw button pressed is passed on as pressed (any clock, any
   period, after any history) *)
Theorem C19_toggle_debounce_never_hides_press : forall p h s,
  s_level s = true -> out sd_step (sd_new p) h s = true.
Proof. exact (fun p => cur_pressed (Some p)). Qed.

(* never while the button is held -- with or without debounce, whatever the
   clock does, whatever the period: the sample that follows a sample that
   read the button pressed does not change the value (in particular not the
   sample taken exactly one debounce period after the press was registered) *)
Theorem C19_toggle_no_change_while_held : forall p h s1 s2,
  s_level s1 = true -> value p (h ++ [s1; s2]) = value p (h ++ [s1]).
Proof. exact toggle_no_change_after_pressed_sample. Qed.

(* ... so the debounced toggle changes only at a released->pressed edge of
   the sampled raw levels (at most once per press) *)
Theorem C19_toggle_debounce_change_only_at_rising_edge : forall p h s,
  mono_from 0 (map s_now (h ++ [s])) ->
  value (Some p) (h ++ [s]) <> value (Some p) h ->
  s_level s = true /\ last (map s_level h) false = false.
Proof.
  exact (fun p h s Hm Hc => conj (proj1 (debounce_change p h s Hm Hc)) (change_after_released _ h s Hc)).
Qed.

(* ... and a press is not lost: a sample that reads pressed right after a
   sample that read released (or as the very first sample) does flip the
   toggle when every earlier sample that read pressed lies at least p before
   that released sample (whose clock reading is not negative) *)
Theorem C19_toggle_debounce_press_after_quiet_flips : forall p h s,
  0 <= last (map s_now h) 0 ->
  last (map s_level h) false = false ->
  (forall s', In s' h -> s_level s' = true -> last (map s_now h) 0 - s_now s' >= p) ->
  s_level s = true ->
  value (Some p) (h ++ [s]) <> value (Some p) h.
Proof.
  intros p h s H0 HL HQ Hs. apply value_change.
  split; [apply cur_pressed, Hs | apply sd_quiet_last; assumption].
Qed.

(* a debounce period of 0 (or less) debounces nothing: every accessor returns
   what it returns on a Toggle without debounce *)
Theorem C19_toggle_nonpositive_period_is_plain : forall p h,
  p <= 0 -> mono_from 0 (map s_now h) ->
  toggle_run (Some p) h = toggle_run None h.
Proof. exact toggle_nonpositive_period_is_plain. Qed.

Theorem C19_debouncer_get_returns_result : forall p h now lvl,
  out deb_step (deb_new p) h (BGet now lvl) = Some (deb_result p h now lvl).
Proof. exact deb_out_get. Qed.

Theorem C19_debouncer_true_only_when_pressed : forall p h now lvl,
  deb_result p h now lvl = true -> lvl = true.
Proof. intros p h now lvl. rewrite deb_exact. destruct lvl; [reflexivity | discriminate]. Qed.

(* any two True results are more than the period (the one in force at the
   later call; set_debounce_period may have changed it) apart, for clock
   readings that never go backwards *)
Theorem C19_debouncer_spacing : forall p h1 n1 l1 h2 n2 l2,
  mono (bop_times (h1 ++ BGet n1 l1 :: h2 ++ [BGet n2 l2])) ->
  deb_result p h1 n1 l1 = true ->
  deb_result p (h1 ++ BGet n1 l1 :: h2) n2 l2 = true ->
  n2 - n1 > period_of p (h1 ++ BGet n1 l1 :: h2).
Proof. exact deb_spacing. Qed.

(* exactly: True iff pressed and more than the period since the last True
   (since the code's initial latest = 0 when there was none); any clock *)
Theorem C19_debouncer_exact : forall p h now lvl,
  deb_result p h now lvl = lvl && (now - last_true p h >? period_of p h).
Proof. exact deb_exact. Qed.

Theorem C19_debouncer_liveness : forall p h now,
  now - last_true p h > period_of p h -> deb_result p h now true = true.
Proof. intros. rewrite deb_exact. apply Z.gtb_lt. lia. Qed.

Theorem C19_filter_bypass_always_passes : forall period bypass h r,
  r_level r >= bypass -> passes period bypass h r = true.
Proof. intros. rewrite passes_spec. apply orb_true_iff. right. apply Z.geb_le. lia. Qed.

(* two passed records below the bypass level are more than the period apart *)
Theorem C19_filter_low_spacing : forall period bypass h1 r1 h2 r2,
  mono (map r_now (h1 ++ r1 :: h2 ++ [r2])) ->
  r_level r1 < bypass -> r_level r2 < bypass ->
  passes period bypass h1 r1 = true ->
  passes period bypass (h1 ++ r1 :: h2) r2 = true ->
  r_now r2 - r_now r1 > period.
Proof. exact filter_low_spacing. Qed.

Theorem C19_watchdog_calls_return : forall t0 h now,
  out wd_step (wd_new t0) h (WIsExpired now) = OExpired (expired t0 h now) /\
  out wd_step (wd_new t0) h (WPrintIfExpired now) = OPrint (warns t0 h now).
Proof. exact (fun t0 h now => conj (wd_out_isExpired t0 h now) (wd_out_print t0 h now)). Qed.

(* expiry exactly when more than the timeout in force has elapsed since the
   last reset()/enable()/setTimeout(); any clock *)
Theorem C19_watchdog_expired_iff : forall t0 h now f,
  last_feed None h = Some f ->
  (expired t0 h now = true <-> now - f > timeout_of t0 h).
Proof. intros t0 h now f H. rewrite expired_exact, H, Z.gtb_ltb, Z.ltb_lt. lia. Qed.

(* (before the first reset the expiration time is the constructor's 0) *)
Theorem C19_watchdog_expired_exact : forall t0 h now,
  expired t0 h now =
  match last_feed None h with
  | Some f => now - f >? timeout_of t0 h
  | None => now >? 0
  end.
Proof. exact expired_exact. Qed.

Theorem C19_watchdog_warns_only_if_expired : forall t0 h now,
  warns t0 h now = true -> expired t0 h now = true.
Proof. intros t0 h now H. rewrite warns_spec in H. apply andb_true_iff in H. tauto. Qed.

(* the warning at most once per second: two warnings are more than
   kMinPrintPeriod = 1 000 000 us apart *)
Theorem C19_watchdog_warning_spacing : forall t0 h1 n1 h2 n2,
  mono (wop_times (h1 ++ WPrintIfExpired n1 :: h2 ++ [WPrintIfExpired n2])) ->
  warns t0 h1 n1 = true ->
  warns t0 (h1 ++ WPrintIfExpired n1 :: h2) n2 = true ->
  n2 - n1 > 1000000.
Proof. exact watchdog_warning_spacing. Qed.

(* addEpoch never changes expiry: deleting every addEpoch() from a history
   changes no result of any other call, and no later isExpired()/warning *)
Theorem C19_watchdog_epochs_invisible : forall t0 h,
  non_epoch_results h (wd_run t0 h) = wd_run t0 (drop_epochs h).
Proof. exact (fun t0 h => proj2 (epochs_sim h _ _ eq_refl)). Qed.

Theorem C19_watchdog_epochs_do_not_change_expiry : forall t0 h now,
  expired t0 h now = expired t0 (drop_epochs h) now /\
  warns t0 h now = warns t0 (drop_epochs h) now.
Proof. exact epochs_do_not_change_expiry. Qed.

(* the statement is closed: it computes to a conjunction of [c = c] and [True],
   which [split] proves, and, from [<=] and [<>], of [c = c' -> False] *)
Ltac nv := vm_compute; repeat split; intro; discriminate.

Definition smp (t : Z) (l : bool) (a : accessor) := mkSample t l a.

(* an 8-sample history through all four accessors: three presses, the value
   flips three times *)
Example C19_nv_toggle :
  let h := [smp 0 false AOff; smp 1 true AOn; smp 2 true AGet; smp 3 false ABool;
            smp 4 true AOff; smp 5 true AOn; smp 6 false AGet; smp 7 true ABool] in
  toggle_run None h = [true; true; true; true; true; false; false; true] /\
  rising false (map s_level h) = 3%nat /\ value None h = true.
Proof. nv. Qed.

(* debounce: hypotheses satisfiable, two changes exactly p = 32 ticks apart
   (the bound >= p is tight), and a press inside the window is swallowed *)
Example C19_nv_toggle_debounce :
  let h1 := [smp 0 false AGet] in let s1 := smp 10 true AGet in
  let h2 := [smp 20 false AGet; smp 30 true AGet; smp 41 false AGet; smp 42 false AGet] in
  let s2 := smp 42 true AGet in
  mono_from 0 (map s_now (h1 ++ s1 :: h2 ++ [s2])) /\
  value (Some 32) (h1 ++ [s1]) <> value (Some 32) h1 /\
  value (Some 32) (h1 ++ s1 :: h2 ++ [s2]) <> value (Some 32) (h1 ++ s1 :: h2) /\
  s_now s2 - s_now s1 = 32 /\
  toggle_run (Some 32) (h1 ++ s1 :: h2 ++ [s2]) = [false; true; true; true; true; true; false].
Proof. nv. Qed.

(* the clock hypothesis of the two debounce theorems is needed: with a
   negative first clock reading the code reports a change with the button
   released (the initial window [latest = -p] is still open) *)
Example C19_toggle_debounce_negative_clock :
  value (Some 32) [smp (-1) false AGet] = true.
Proof. vm_compute. reflexivity. Qed.

(* a button pressed at tick 10 and held, polled every p/2 = 16 ticks: the
   sample exactly one period after the registering press (tick 42) and the
   ones after it change nothing; after a release of p ticks the next press
   flips the toggle again (the hypotheses of
   C19_toggle_debounce_press_after_quiet_flips hold of [h] and [s]) *)
Example C19_nv_toggle_held_across_period :
  let h := [smp 0 false AGet; smp 10 true AOn; smp 26 true AGet; smp 42 true AOff; smp 58 true ABool;
            smp 74 true AGet; smp 90 false AGet; smp 106 false AOn] in
  let s := smp 122 true AOn in
  toggle_run (Some 32) (h ++ [s]) = [false; true; true; false; true; true; true; true; false] /\
  debounced 32 h = [false; true; true; true; true; true; true; false] /\
  0 <= last (map s_now h) 0 /\ last (map s_level h) false = false /\
  (forallb (fun s' => negb (s_level s') || (last (map s_now h) 0 - s_now s' >=? 32)) h = true) /\
  value (Some 32) (h ++ [s]) <> value (Some 32) h.
Proof. nv. Qed.

(* period 0: plain toggle behaviour, every press registers *)
Example C19_nv_toggle_zero_period :
  let h := [smp 0 false AGet; smp 1 true AGet; smp 1 true AGet; smp 2 false AGet; smp 2 true AGet] in
  mono_from 0 (map s_now h) /\ toggle_run (Some 0) h = [false; true; true; true; false].
Proof. nv. Qed.

(* debouncer: a True, a refused press exactly one period later (the bound
   "> p" is tight), a True one tick after that *)
Example C19_nv_debouncer :
  let h := [BGet 40 true; BGet 72 true; BGet 73 true; BGet 74 false] in
  mono (bop_times h) /\ deb_run 32 h = [Some true; Some false; Some true; Some false] /\
  deb_result 32 [] 40 true = true /\ deb_result 32 [BGet 40 true; BGet 72 true] 73 true = true /\
  last_true 32 [BGet 40 true; BGet 72 true] = 40.
Proof. nv. Qed.

(* interpretation (DESIGN 10): before the first True the anchor is FPGA boot,
   so a press within one period of boot is refused *)
Example C19_debouncer_first_press_after_boot :
  deb_result 32 [] 32 true = false /\ deb_result 32 [] 33 true = true.
Proof. vm_compute. split; reflexivity. Qed.

(* filter: low records pass once per period (strictly more than 64 ticks
   apart), a bypass-level record passes in between *)
Example C19_nv_filter :
  let h := [mkRec 1 20; mkRec 2 20; mkRec 3 30; mkRec 65 20; mkRec 66 20; mkRec 67 20] in
  mono (map r_now h) /\ pf_run 64 30 h = [true; false; true; false; true; false].
Proof. nv. Qed.

(* a bypass-level record that arrives when the period has passed takes the
   slot: the low record right after it is suppressed (the property does not
   promise otherwise) *)
Example C19_filter_bypass_takes_slot :
  pf_run 64 30 [mkRec 100 30; mkRec 101 20] = [true; false].
Proof. vm_compute. reflexivity. Qed.

(* watchdog: not expired at exactly the timeout, expired 1 us later; two
   warnings 1 000 001 us apart, none at exactly 1 000 000 us *)
Example C19_nv_watchdog :
  let h := [WReset 5000000; WIsExpired 5020000; WIsExpired 5020001; WAddEpoch 5020002 7%nat;
            WPrintIfExpired 5020003; WPrintIfExpired 6020003; WPrintIfExpired 6020004] in
  mono (wop_times h) /\ last_feed None h = Some 5000000 /\
  wd_run 20000 h = [ONone; OExpired false; OExpired true; ONone; OPrint true; OPrint false; OPrint true].
Proof. nv. Qed.

Print Assumptions C19_trace_is_outs.
Print Assumptions C19_toggle_accessors_report_value.
Print Assumptions C19_toggle_any_accessor_samples.
Print Assumptions C19_toggle_on_is_not_off.
Print Assumptions C19_toggle_get_on_bool_agree.
Print Assumptions C19_toggle_parity.
Print Assumptions C19_toggle_changes_exactly_at_rising_edges.
Print Assumptions C19_toggle_no_change_while_level_steady.
Print Assumptions C19_toggle_no_change_on_release.
Print Assumptions C19_toggle_debounce_parity.
Print Assumptions C19_toggle_debounce_spacing.
Print Assumptions C19_toggle_debounce_change_needs_press.
Print Assumptions C19_toggle_debounce_never_hides_press.
Print Assumptions C19_toggle_no_change_while_held.
Print Assumptions C19_toggle_debounce_change_only_at_rising_edge.
Print Assumptions C19_toggle_debounce_press_after_quiet_flips.
Print Assumptions C19_toggle_nonpositive_period_is_plain.
Print Assumptions C19_debouncer_get_returns_result.
Print Assumptions C19_debouncer_true_only_when_pressed.
Print Assumptions C19_debouncer_spacing.
Print Assumptions C19_debouncer_exact.
Print Assumptions C19_debouncer_liveness.
Print Assumptions C19_filter_bypass_always_passes.
Print Assumptions C19_filter_low_spacing.
Print Assumptions C19_watchdog_calls_return.
Print Assumptions C19_watchdog_expired_iff.
Print Assumptions C19_watchdog_expired_exact.
Print Assumptions C19_watchdog_warns_only_if_expired.
Print Assumptions C19_watchdog_warning_spacing.
Print Assumptions C19_watchdog_epochs_invisible.
Print Assumptions C19_watchdog_epochs_do_not_change_expiry.
