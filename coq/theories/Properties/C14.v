(* C14 -- Autonomous mode selector: faithful discovery, one active mode, clean
   lifecycle.  Statements; each theorem is closed by a lemma of Selector.Proofs
   or a one-line term over such lemmas.  The examples at the end are closed
   instances: what [discover], [init] and [trace] return is found by evaluation;
   the hypotheses of the theorems about the example layouts (ex_layout_ok, and
   [path_ok], [name_determines_module] in ex_namespace_path and
   ex_same_name_in_two_directories) and the [dotted_prefix] facts of
   ex_package_import have short proofs by hand.

   Vocabulary.  Selector/Model.v is the code; Selector/Spec.v what the statements
   say about layouts and call sequences ([needed], the faults, the hypotheses,
   [conforms]); the other definitions that statements use stand in
   Selector/Proofs.v, each with its first theorem: [is_prefix], [is_default_kv],
   [calm], [open_period], [quiet_after_disable] (with [is_enable]), and the
   counter-examples' [clash_pkg], [none_pkg], [two_pkg], [ev_kind].
     package      a layout: missing | its own import fails | the *.py files the
                  glob returns, each with its classes (MODE_NAME, DISABLED,
                  DEFAULT, raising constructor) or a failing import
     discover fms p   = AutonomousModeSelector.__init__: [Built r] or [Raised e calls]
     init fms pkgname i   the same, starting one step earlier: i is what
                  import_module(pkgname) did (an ImportError -- ModuleNotFoundError or
                  not -- with its e.name, another exception, or the package), and the
                  test that tells a missing package from a failing import is part of
                  the model
     ImportedNamespace path   ... the package is an implicit one (no __file__): the entries
                  of its __path__ (directory, glob of the directory), repetitions included
     ctor_raises c   calling the class raises, by whatever mechanism ([ctor_behaviour])
     needed p     the classes with MODE_NAME and not DISABLED of the importable
                  modules other than __init__.py, in scan order
     ctor_calls r the constructor calls __init__ made, as (file, class) pairs
     modes r      selector.modes;  option_names r / preselection r  the chooser
     select r s   the mode chosen for s = (dashboard string, chooser selection)
     trace r ops  the callbacks delivered by a sequence of start/periodic/
                  disable/run()/endCompetition calls; a run() period lists the
                  passes of its loop as (clock, autonomous+enabled?, disable()
                  called on the selector during this pass?)
     conforms     the language (on_enable . on_iteration* . on_disable)* of the
                  property, period by period, for the selected modes
     periods ops / conforms_marked   the same for call sequences of ANY shape: each
                  period with the mark "a disable() ends it before the next one
                  begins"; an unmarked period is on_enable . on_iteration* only
   Hypotheses:
     layout_ok p  what Python guarantees of a layout: no file twice, no member
                  name twice in a module
     no_key_clash p   the keys "<class>_<file>" of the FMS branch are pairwise
                  different and no MODE_NAME is one of them
     choosable k  k is neither "None" nor ""
     path_ok path what the file system guarantees of a __path__: the same
                  directory lists the same files, a file lies in one directory,
                  and is listed once
     name_determines_module path   files of one name in the directories of path
                  have the same classes and the same import outcome (they stand
                  for the one module Python imports under that name)
     well_formed ops   (start . periodic* . disable+)* and run() periods, no
                  periodic() before the first start()
     timer_ready false ops   that last condition alone
     clock_monotone ops   the clock readings of ops never decrease
     live_prefix wakes   the passes of a run() loop that deliver on_iteration: those
                  that saw "autonomous and enabled", up to and including the one
                  during which disable() was called ([enabled_prefix]: without that
                  cut; [calm] w: enabled and no disable() during w) *)
From Coq Require Import String List ZArith Bool.
From RV Require Import Selector.Model Selector.Spec Selector.Proofs.
Import ListNotations.
Open Scope string_scope.
Open Scope list_scope.

(* ---- discovery ---------------------------------------------------- *)

(* Whenever construction succeeds (FMS or not), the constructor calls are the
   needed classes in scan order ... *)
Theorem C14_constructor_calls : forall fms p r,
  discover fms p = Built r -> ctor_calls r = map call_of (needed p).
Proof. exact built_ctor_calls. Qed.

(* ... that is: no call is repeated, a class of an importable module is
   called iff it defines MODE_NAME and is not DISABLED, nothing else is called. *)
Theorem C14_instantiated_exactly : forall fms p r,
  discover fms p = Built r -> layout_ok p ->
  NoDup (ctor_calls r) /\
  (forall m c, In m (loaded_modules p) -> In c (classes m) ->
     (In (file m, cname c) (ctor_calls r) <-> is_needed c = true)) /\
  (forall x, In x (ctor_calls r) ->
     exists m c, In m (loaded_modules p) /\ In c (classes m) /\ x = (file m, cname c)).
Proof. exact instantiated_exactly. Qed.

(* when it raises, only a prefix of them was called *)
Theorem C14_raise_calls_prefix : forall fms p e c,
  discover fms p = Raised e c -> is_prefix c (map call_of (needed p)).
Proof. exact raised_ctor_calls_prefix. Qed.

(* Without FMS, whenever construction succeeds the map is the needed classes in
   scan order, keyed by MODE_NAME, at most one of them is flagged DEFAULT, and that
   one (else "None") is preselected.  (That the layout then has none of the faults
   is the "if" of C14_no_fms_raises_iff, contraposed: a fault makes it raise.) *)
Theorem C14_keyed_by_mode_name : forall p r,
  discover false p = Built r ->
  modes r = map entry_of (needed p) /\
  match filter is_default (needed p) with
  | [] => preselection r = "None"
  | [i] => preselection r = name_of i
  | _ => False
  end.
Proof. exact keyed_by_mode_name. Qed.

(* The chooser (FMS or not): the options are the keys of selector.modes plus
   "None"; "None" stands for no mode; every other key stands for its instance;
   the preselection is "None" without a DEFAULT mode, the DEFAULT mode if there
   is one, one of them if there are several (possible with FMS only). *)
Theorem C14_offers_none_and_default : forall fms p r,
  discover fms p = Built r ->
  (forall k, In k (option_names r) <-> k = "None" \/ In k (map fst (modes r))) /\
  (forall k, dict_get k (options (chooser_of r)) =
             if "None" =? k then Some None else option_map Some (dict_get k (modes r))) /\
  match filter is_default_kv (modes r) with
  | [] => preselection r = "None"
  | [(k, i)] => preselection r = k
  | _ => exists k i, In (k, i) (modes r) /\ is_default i = true /\ preselection r = k
  end.
Proof.
  exact (fun fms p r H => conj (built_option_names fms p r H)
                            (conj (built_options fms p r H) (built_preselection fms p r H))).
Qed.

(* no FMS: the constructor raises exactly when the layout has one of the faults *)
Theorem C14_no_fms_raises_iff : forall p,
  (exists e c, discover false p = Raised e c) <->
  (package_fault p \/ import_fault p \/ ctor_fault p \/ duplicate_names p \/ several_defaults p).
Proof. exact no_fms_raises_iff. Qed.

(* a missing package is not a fault *)
Theorem C14_missing_package_tolerated : forall fms, exists r, discover fms PkgMissing = Built r.
Proof. exact (fun fms => let (r, H) := empty_scan_offers_nothing fms in ex_intro _ r (proj1 H)). Qed.

(* a failing import of the package itself: raised without FMS, tolerated with
   it, only "None" offered (defect D10, DESIGN 13.4) *)
Theorem C14_package_failure_policy :
  discover false PkgInitFails = Raised ErrPackage [] /\
  exists r, discover true PkgInitFails = Built r /\
    modes r = [] /\ ctor_calls r = [] /\ option_names r = ["None"] /\ preselection r = "None".
Proof. exact (conj eq_refl (empty_scan_offers_nothing true)). Qed.

(* FMS attached: never raises, whatever the layout (a package whose own import
   fails included) ... *)
Theorem C14_fms_never_raises : forall p, exists r, discover true p = Built r.
Proof. exact fms_never_raises. Qed.

(* ... and every healthy mode is in the map, offered by the chooser and
   selectable, under its MODE_NAME or -- a duplicate -- under "<class>_<file>". *)
Theorem C14_fms_tolerates : forall p,
  exists r, discover true p = Built r /\
    (no_key_clash p ->
     forall i, In i (needed p) -> healthy i = true ->
       exists k, (k = name_of i \/ k = renamed i) /\
                 dict_get k (modes r) = Some i /\
                 In k (option_names r) /\
                 (choosable k -> chooser_selected (chooser_of r) (Some k) = Some i)).
Proof. exact fms_tolerates. Qed.

(* ... and nothing unhealthy or foreign is in the map *)
Theorem C14_fms_modes_are_healthy : forall p r,
  discover true p = Built r -> no_key_clash p ->
  forall k i, dict_get k (modes r) = Some i ->
    In i (needed p) /\ healthy i = true /\ (k = name_of i \/ k = renamed i).
Proof. exact (fun p r H Hc => proj2 (fms_modes p r H Hc)). Qed.

(* ---- the import of the package itself ------------------------------ *)

(* An ImportError out of import_module(pkgname).  "No such package" -- a
   ModuleNotFoundError whose name is the package or a package it is nested in
   ([no_such_package], [dotted_prefix]) -- is tolerated, FMS or not, with nothing
   but "None" offered; every other ImportError raises at start-up without FMS. *)
Theorem C14_package_import_policy : forall pkgname mnf ename,
  (~ no_such_package pkgname (ImportRaisesImportError mnf ename) ->
     init false pkgname (ImportRaisesImportError mnf ename) = Raised ErrPackage []) /\
  (no_such_package pkgname (ImportRaisesImportError mnf ename) ->
     forall fms, exists r, init fms pkgname (ImportRaisesImportError mnf ename) = Built r /\ offers_nothing r).
Proof. exact import_error_policy. Qed.

(* the test of the code is that notion: (pkgname + ".").startswith(n + ".") *)
Theorem C14_dotted_prefix_is_the_startswith_test : forall n pkgname,
  prefix (n ++ ".")%string (pkgname ++ ".")%string = true <-> dotted_prefix n pkgname.
Proof. exact dotted_prefix_iff. Qed.

(* any other exception out of the package's own code: raised *)
Theorem C14_package_import_other_exception : forall pkgname,
  init false pkgname ImportRaisesOther = Raised ErrPackage [].
Proof. exact (fun _ => eq_refl). Qed.

(* an ImportError that is not a ModuleNotFoundError ("from . import helper" in
   the package's __init__.py raises ImportError(name=<the package>)) raises
   without FMS WHATEVER its name (defect D13, DESIGN 13.4) *)
Theorem C14_plain_import_error_raises : forall pkgname ename,
  init false pkgname (ImportRaisesImportError false ename) = Raised ErrPackage [].
Proof. exact plain_import_error_raises. Qed.

(* ... and so does a ModuleNotFoundError without a name *)
Theorem C14_nameless_module_not_found_raises : forall pkgname,
  init false pkgname (ImportRaisesImportError true None) = Raised ErrPackage [].
Proof. exact nameless_module_not_found_raises. Qed.

(* a package missing at ANY level of the dotted name (first component, one in
   the middle, the package itself) is a missing package: tolerated, FMS or not,
   only "None" offered (defect D14, DESIGN 13.4) *)
Theorem C14_missing_package_at_any_level_tolerated : forall fms pkgname n,
  dotted_prefix n pkgname ->
  exists r, init fms pkgname (ImportRaisesImportError true (Some n)) = Built r /\ offers_nothing r.
Proof. exact missing_package_at_any_level_tolerated. Qed.

(* a missing module that is NOT the package or a package it is nested in is a
   failing import: raised without FMS ... *)
Theorem C14_missing_other_module_raises : forall pkgname n,
  ~ dotted_prefix n pkgname ->
  init false pkgname (ImportRaisesImportError true (Some n)) = Raised ErrPackage [].
Proof. exact missing_other_module_raises. Qed.

(* ... sharing the first dotted component with the package does not change that ... *)
Theorem C14_missing_module_in_namespace_raises : forall pkgname n,
  top_component n = top_component pkgname -> ~ dotted_prefix n pkgname ->
  init false pkgname (ImportRaisesImportError true (Some n)) = Raised ErrPackage [].
Proof. exact (fun pkgname n _ => missing_other_module_raises pkgname n). Qed.

(* ... e.g. a sub-module the package's __init__ needs ("from .helper import X") ... *)
Theorem C14_missing_submodule_raises : forall pkgname sub,
  init false pkgname (ImportRaisesImportError true (Some (pkgname ++ "." ++ sub)%string)) = Raised ErrPackage [].
Proof. exact missing_submodule_raises. Qed.

(* ... or a module of the parent package ("import robot.helpers" in
   robot/autonomous/__init__.py) that is not a package the autonomous package is
   nested in *)
Theorem C14_missing_sibling_raises : forall top rest sub,
  ~ dotted_prefix sub rest ->
  init false (top ++ "." ++ rest)%string (ImportRaisesImportError true (Some (top ++ "." ++ sub)%string))
  = Raised ErrPackage [].
Proof. exact missing_sibling_raises. Qed.

(* no FMS, from the import on: raises exactly when the import of the package
   fails (other than "no such package") or the layout has one of the faults *)
Theorem C14_init_no_fms_raises_iff : forall pkgname i,
  let p := import_outcome pkgname i in
  (exists e c, init false pkgname i = Raised e c) <->
  (package_import_fault pkgname i \/ import_fault p \/ ctor_fault p \/ duplicate_names p \/ several_defaults p).
Proof. exact init_no_fms_raises_iff. Qed.

(* FMS attached: never raises, whatever the import did *)
Theorem C14_init_fms_never_raises : forall pkgname i, exists r, init true pkgname i = Built r.
Proof. exact (fun pkgname i => fms_never_raises (import_outcome pkgname i)). Qed.

(* ---- failing constructors, whatever makes them fail ------------------ *)

(* [ctor_raises c]: the call obj(args..) of the class raises.  The model -- like
   the selector -- knows nothing about the mechanism: an __init__ that raises, a
   __new__ or a metaclass __call__ that raises, an abstract class (abc; TypeError
   out of object.__new__), an __init__ that wants arguments ([ctor_behaviour],
   [fails]: all but [Constructs]).  For EVERY layout and every such class with
   MODE_NAME, not DISABLED, in an importable module: start-up raises without FMS;
   with FMS the call is made, the class is not offered (nothing that failed to
   construct is in selector.modes), and every healthy mode is still offered and
   selectable. *)
Theorem C14_failing_constructor_policy : forall p i,
  In i (needed p) -> ctor_raises (icls i) = true ->
  (exists e c, discover false p = Raised e c) /\
  (exists r, discover true p = Built r /\
     In (call_of i) (ctor_calls r) /\
     (forall k j, In (k, j) (modes r) -> ctor_raises (icls j) = false) /\
     (no_key_clash p ->
      forall j, In j (needed p) -> healthy j = true ->
        exists k, (k = name_of j \/ k = renamed j) /\
                  dict_get k (modes r) = Some j /\
                  In k (option_names r) /\
                  (choosable k -> chooser_selected (chooser_of r) (Some k) = Some j))).
Proof. exact failing_constructor_policy. Qed.

(* whatever was built, FMS or not: only constructed instances are in selector.modes *)
Theorem C14_modes_are_constructed : forall fms p r,
  discover fms p = Built r -> forall k i, In (k, i) (modes r) -> ctor_raises (icls i) = false.
Proof. exact built_modes_constructed. Qed.

(* ---- implicit (namespace) packages ---------------------------------- *)

(* A package without __file__ is scanned through its __path__, which may list
   several directories and the same directory several times (it is on sys.path
   twice).  [path_dirs] = list(set(__path__)): every directory once ... *)
Theorem C14_namespace_path_is_a_set : forall path,
  NoDup (map pdir (path_dirs path)) /\
  (forall po, In po (path_dirs path) -> In po path) /\
  (forall d, In d (map pdir path) <-> In d (map pdir (path_dirs path))).
Proof. exact path_dirs_set. Qed.

(* ... of the files found there ONE per module name is scanned
   ([path_modules]; files of the same name in other directories are shadowed,
   Python imports the name from one of them only): no file twice, no name twice,
   nothing foreign, every module name represented; when no name occurs in two
   directories these are all the files ([path_ok]: what the file system
   guarantees about the listings) (defect D15, DESIGN 13.4) ... *)
Theorem C14_namespace_modules_once : forall path, path_ok path ->
  NoDup (map file (path_modules path)) /\
  NoDup (map mname (path_modules path)) /\
  (forall m, In m (path_modules path) -> in_path path m) /\
  (forall m, in_path path m -> exists m', In m' (path_modules path) /\ mname m' = mname m) /\
  (names_distinct path -> forall m, in_path path m -> In m (path_modules path)).
Proof. exact path_modules_once. Qed.

(* ... an entry that names a directory listed earlier changes NOTHING: same
   outcome, same constructor calls, same modes, same chooser ... *)
Theorem C14_namespace_repeated_directory_ignored : forall fms pkgname pre po mid po' post,
  pdir po' = pdir po ->
  init fms pkgname (ImportedNamespace (pre ++ po :: mid ++ po' :: post)) =
  init fms pkgname (ImportedNamespace (pre ++ po :: mid ++ post)).
Proof. exact namespace_repeated_directory_ignored. Qed.

(* ... and "once each" holds for implicit packages: whenever construction
   succeeds no constructor call is repeated, a class of a scanned file is called
   iff it defines MODE_NAME and is not DISABLED, and nothing else is called. *)
Theorem C14_namespace_instantiated_once : forall fms pkgname path r,
  init fms pkgname (ImportedNamespace path) = Built r ->
  path_ok path ->
  (forall m, in_path path m -> NoDup (map cname (classes m))) ->
  NoDup (ctor_calls r) /\
  (forall m c, In m (path_modules path) -> mname m <> "__init__" -> import_fails m = false -> In c (classes m) ->
     (In (file m, cname c) (ctor_calls r) <-> is_needed c = true)) /\
  (forall x, In x (ctor_calls r) ->
     exists m c, In m (path_modules path) /\ In c (classes m) /\ is_needed c = true /\ x = (file m, cname c)).
Proof. exact namespace_instantiated_once. Qed.

(* (defect D15, DESIGN 13.4) Files of the same name in several directories of
   __path__ ([name_determines_module]: they all stand for the ONE module Python
   imports under that name): of all the files bearing the name of an importable
   module exactly one, m', is used; every class of the module with MODE_NAME and
   not DISABLED is called through m' and through no other file of that name: no
   second round of constructor calls, hence no "Duplicate name" and no phantom
   mode.  The hypothesis on member names is that of
   C14_namespace_instantiated_once, whose first conjunct makes the call through
   m' a single one; the proof here does not use it. *)
Theorem C14_namespace_one_file_per_name : forall fms pkgname path r,
  init fms pkgname (ImportedNamespace path) = Built r ->
  path_ok path -> name_determines_module path ->
  (forall m, in_path path m -> NoDup (map cname (classes m))) ->
  forall m, in_path path m -> mname m <> "__init__" -> import_fails m = false ->
  exists m', In m' (path_modules path) /\ mname m' = mname m /\
    forall c, In c (classes m) -> is_needed c = true ->
      In (file m', cname c) (ctor_calls r) /\
      (forall n, in_path path n -> mname n = mname m -> In (file n, cname c) (ctor_calls r) -> n = m').
Proof. exact (fun fms pkgname path r H Hok Hname _ => namespace_one_file_per_name fms pkgname path r H Hok Hname). Qed.

(* ... and a file whose name a directory scanned earlier already has changes
   NOTHING: same outcome, calls, modes, chooser as without that file.
   [pdir a <> d] says which case is meant and is not needed: if d is the
   directory of a again, the whole second entry is dropped on both sides. *)
Theorem C14_namespace_shadowed_file_ignored : forall fms pkgname a d pre m' post,
  pdir a <> d -> (exists m, In m (pfiles a) /\ mname m = mname m') ->
  init fms pkgname (ImportedNamespace [a; mkPortion d (pre ++ m' :: post)]) =
  init fms pkgname (ImportedNamespace [a; mkPortion d (pre ++ post)]).
Proof. exact (fun fms pkgname a d pre m' post _ => namespace_shadowed_file_ignored fms pkgname a d pre m' post). Qed.

(* ---- selection ---------------------------------------------------- *)

(* the dashboard's "Auto Selector" string wins if it names a mode ... *)
Theorem C14_selection_dashboard : forall r a c m,
  dict_get a (modes r) = Some m -> select r (Some a, c) = Some m.
Proof. exact select_dashboard. Qed.

(* ... otherwise the chooser decides: its selection, else its preselection *)
Theorem C14_selection_chooser : forall fms p r, discover fms p = Built r ->
  forall d c, (forall a, d = Some a -> dict_get a (modes r) = None) ->
  select r (d, c) =
  let name := match c with Some s => s | None => preselection r end in
  if (name =? "") || (name =? "None") then None else dict_get name (modes r).
Proof.
  exact (fun fms p r H d c Hd =>
           eq_trans (select_chooser r d c Hd) (chooser_selected_built fms p r H c)).
Qed.

(* ---- lifecycle ---------------------------------------------------- *)

(* For every well-formed call sequence under a monotone clock the delivered
   callbacks are, period by period, on_enable . on_iteration(t)* . on_disable of
   the mode selected when the period began, 0 <= t non-decreasing, only the last
   period possibly still open -- and no call raises AttributeError. *)
Theorem C14_lifecycle : forall r ops,
  well_formed ops = true -> clock_monotone ops ->
  conforms r (selections ops) (trace r ops) /\ snd (run_ops r init_lstate ops) <> None.
Proof. exact lifecycle. Qed.

(* no other mode receives any callback *)
Theorem C14_only_selected_modes : forall r ops,
  well_formed ops = true -> clock_monotone ops ->
  forall e, In e (trace r ops) ->
    exists s, In s (selections ops) /\ select r s = Some (mode_of e).
Proof. exact (fun r ops Hw => only_selected_modes r ops (wf_timer_ready ops Hw)). Qed.

(* nothing is delivered after on_disable before the next on_enable *)
Theorem C14_nothing_after_disable : forall r ops,
  well_formed ops = true -> clock_monotone ops -> quiet_after_disable (trace r ops).
Proof. exact (fun r ops Hw => nothing_after_disable r ops (wf_timer_ready ops Hw)). Qed.

(* once per loop: one run() period delivers on_enable, then exactly one
   on_iteration per live pass of the loop -- the passes that saw "autonomous and
   enabled", up to and including the pass during which somebody (an iter_fn hook,
   another thread) called disable() -- with t = clock - entry time, then on_disable
   exactly once, whoever called disable() first.  [active st = None], here and in
   the next three theorems, is the state in which a period of a well-formed
   sequence begins; none of the four needs it, since run() and start() select
   afresh (C14_run_period_exact_any, C14_start_selects_afresh below). *)
Theorem C14_run_period_exact : forall r st s t0 wakes,
  active st = None ->
  do_run r st s t0 wakes =
  (mkL None (timer st) (robot_exit st),
   match select r s with
   | None => []
   | Some m => OnEnable m ::
               map (OnIteration m)
                   (if robot_exit st then [] else map (fun now => now - t0)%Z (live_prefix wakes)) ++
               [OnDisable m]
   end).
Proof. exact (fun r st s t0 wakes _ => run_period_exact r st s t0 wakes). Qed.

(* nobody calls disable() during the loop: one on_iteration per enabled pass *)
Theorem C14_run_period_undisturbed : forall r st s t0 wakes,
  active st = None -> undisturbed wakes ->
  do_run r st s t0 wakes =
  (mkL None (timer st) (robot_exit st),
   match select r s with
   | None => []
   | Some m => OnEnable m ::
               map (OnIteration m)
                   (if robot_exit st then [] else map (fun now => now - t0)%Z (enabled_prefix wakes)) ++
               [OnDisable m]
   end).
Proof. exact (fun r st s t0 wakes _ => run_period_undisturbed r st s t0 wakes). Qed.

(* disable() called while run() is still going round (during the pass that read
   [now]; the passes [pre] before it enabled and undisturbed): on_disable is
   delivered once, and NOTHING after it -- however many passes [post] the loop
   still makes with the driver station in autonomous+enabled, and although run()
   calls disable() again when the loop ends *)
Theorem C14_run_period_disable_mid : forall r st s m t0 pre now post,
  active st = None -> robot_exit st = false -> select r s = Some m -> Forall calm pre ->
  do_run r st s t0 (pre ++ (now, true, true) :: post) =
  (mkL None (timer st) false,
   OnEnable m ::
   map (OnIteration m) (map (fun n => n - t0)%Z (map wake_now pre ++ [now])) ++ [OnDisable m]).
Proof. exact (fun r st s m t0 pre now post _ => run_period_disable_mid r st s m t0 pre now post). Qed.

(* the same for start . periodic^n . disable: on_enable, exactly n on_iteration
   with t = clock - start time, on_disable *)
Theorem C14_timed_period_exact : forall r st s now nows,
  active st = None ->
  run_ops r st (Start s now :: map Periodic nows ++ [Disable]) =
  (match select r s with
   | None => []
   | Some m => OnEnable m :: map (fun n => OnIteration m (n - now)%Z) nows ++ [OnDisable m]
   end,
   Some (mkL None (Some now) (robot_exit st))).
Proof. exact (fun r st s now nows _ => timed_period_exact r st s now nows). Qed.

(* ---- periods that are not followed by disable() --------------------- *)

(* start() enables the mode selected NOW, whatever an earlier period left in
   self.active_mode (no hypothesis on the state) ... *)
Theorem C14_start_selects_afresh : forall r st s now,
  do_start r st s now =
  (mkL (select r s) (Some now) (robot_exit st),
   match select r s with Some m => [OnEnable m] | None => [] end).
Proof. exact start_selects_afresh. Qed.

(* ... and so does run(): C14_run_period_exact from ANY state *)
Theorem C14_run_period_exact_any : forall r st s t0 wakes,
  do_run r st s t0 wakes =
  (mkL None (timer st) (robot_exit st),
   match select r s with
   | None => []
   | Some m => OnEnable m ::
               map (OnIteration m)
                   (if robot_exit st then [] else map (fun now => now - t0)%Z (live_prefix wakes)) ++
               [OnDisable m]
   end).
Proof. exact run_period_exact. Qed.

(* TimedRobot without disable(): start . periodic^n . start . periodic^k delivers
   on_enable . on_iteration^n to the mode selected at the first start() and
   on_enable . on_iteration^k to the mode selected at the second one -- nothing
   at all if that selection is "None" -- from any state; the first mode hears
   nothing after the second start() *)
Theorem C14_period_after_open_period : forall r st s1 now1 nows1 s2 now2 nows2,
  run_ops r st (Start s1 now1 :: map Periodic nows1 ++ Start s2 now2 :: map Periodic nows2) =
  (open_period r s1 now1 nows1 ++ open_period r s2 now2 nows2,
   Some (mkL (select r s2) (Some now2) (robot_exit st))).
Proof. exact period_after_open_period. Qed.

(* EVERY call sequence in which periodic() does not precede the first start()
   (periods following one another without disable(), start() and run() mixed at
   will), monotone clock: period by period the mode selected when the period
   begins gets on_enable . on_iteration(t)*, 0 <= t non-decreasing, and on_disable
   exactly if a disable() ends the period before the next one begins; no
   AttributeError *)
Theorem C14_lifecycle_any_periods : forall r ops,
  timer_ready false ops = true -> clock_monotone ops ->
  conforms_marked r (periods ops) (trace r ops) /\ snd (run_ops r init_lstate ops) <> None.
Proof. exact lifecycle_marked. Qed.

(* ... hence no other mode receives any callback there either *)
Theorem C14_only_selected_modes_any_periods : forall r ops,
  timer_ready false ops = true -> clock_monotone ops ->
  forall e, In e (trace r ops) ->
    exists s, In s (selections ops) /\ select r s = Some (mode_of e).
Proof. exact only_selected_modes. Qed.

(* ---- where the code is narrower than the wording: what fails without
   [no_key_clash], [choosable], [well_formed] (the first two are the open findings
   of known_findings.json, DESIGN 13.4) ---- *)

(* without [no_key_clash] a healthy mode can be lost under FMS *)
Theorem C14_fms_key_clash_refuted :
  exists r, discover true clash_pkg = Built r /\
    In (mkInst "/p/m.py" (mkCls "A0" (Some "B_/p/m.py") false false false)) (needed clash_pkg) /\
    forall k, dict_get k (modes r) <> Some (mkInst "/p/m.py" (mkCls "A0" (Some "B_/p/m.py") false false false)).
Proof. exact fms_key_clash_refuted. Qed.

(* a mode called "None" cannot be chosen through the chooser, DEFAULT or not *)
Theorem C14_mode_called_None_refuted :
  exists r, discover false none_pkg = Built r /\
    preselection r = "None" /\ chooser_selected (chooser_of r) None = None /\
    chooser_selected (chooser_of r) (Some "None") = None.
Proof. exact mode_called_None_refuted. Qed.

(* without well-formedness (start() twice) a mode is left without on_disable *)
Theorem C14_ill_formed_refuted :
  exists r, discover false two_pkg = Built r /\
    well_formed [Start (None, None) 0; Start (Some "b", None) 5; Disable] = false /\
    map ev_kind (trace r [Start (None, None) 0; Start (Some "b", None) 5; Disable]) =
      [("enable", "A"); ("enable", "B"); ("disable", "B")].
Proof. exact ill_formed_refuted. Qed.

(* ---- non-vacuity --------------------------------------------------- *)

Definition ex_pkg : package :=
  PkgPresent [
    mkMod "__init__" "/p/__init__.py" false [mkCls "Hidden" (Some "hidden") false true false];
    mkMod "beta" "/p/beta.py" false
      [mkCls "B" (Some "two") false false false; mkCls "Base" None false true false;
       mkCls "Off" (Some "off") true true false];
    mkMod "alpha" "/p/alpha.py" false [mkCls "A" (Some "one") false true false]].

Definition ex_A := mkInst "/p/alpha.py" (mkCls "A" (Some "one") false true false).
Definition ex_B := mkInst "/p/beta.py" (mkCls "B" (Some "two") false false false).

(* a fault-free layout with a class in __init__.py, a non-mode class and a
   disabled mode: two constructor calls, keyed by MODE_NAME, "one" preselected *)
Example ex_discover :
  exists r, discover false ex_pkg = Built r /\
    ctor_calls r = [("/p/beta.py", "B"); ("/p/alpha.py", "A")] /\
    modes r = [("two", ex_B); ("one", ex_A)] /\
    option_names r = ["one"; "two"; "None"] /\ preselection r = "one".
Proof. eexists. split; [vm_compute; reflexivity|]. vm_compute. auto. Qed.

Example ex_layout_ok : layout_ok ex_pkg /\ no_key_clash ex_pkg.
Proof.
  split; [split|apply no_key_clash_intro; reflexivity].
  - now apply has_dup_false.
  - intros m [<-|[<-|[]]]; now apply has_dup_false.
Qed.

(* a duplicate MODE_NAME raises without FMS, after both constructor calls *)
Example ex_duplicate_raises :
  discover false (PkgPresent [mkMod "a" "/p/a.py" false [mkCls "A" (Some "x") false false false];
                              mkMod "b" "/p/b.py" false [mkCls "B" (Some "x") false false false]])
  = Raised (ErrDuplicate "x" "/p/b.py") [("/p/a.py", "A"); ("/p/b.py", "B")].
Proof. reflexivity. Qed.

Example ex_duplicate_tolerated_with_fms :
  exists r, discover true (PkgPresent [mkMod "a" "/p/a.py" false [mkCls "A" (Some "x") false false false];
                                       mkMod "b" "/p/b.py" true [];
                                       mkMod "c" "/p/c.py" false [mkCls "B" (Some "x") false true false;
                                                                   mkCls "C" (Some "y") false true true]])
            = Built r /\
    map fst (modes r) = ["x"; "B_/p/c.py"] /\ option_names r = ["B_/p/c.py"; "x"; "None"] /\
    preselection r = "B_/p/c.py".
Proof. eexists. split; [vm_compute; reflexivity|]. vm_compute. auto. Qed.

(* a well-formed call sequence with two periods, both selection sources, a
   run() period of three loop passes, periodic() after disable() *)
Example ex_lifecycle :
  exists r, discover false ex_pkg = Built r /\
  let ops := [Start (None, None) 100; Periodic 120; Periodic 140; Disable; Disable; Periodic 150;
              RunPeriod (Some "two", Some "one") 200
                [(200, true, false); (220, true, false); (240, true, false); (260, false, false)]]%Z in
  well_formed ops = true /\ clock_monotone ops /\
  trace r ops = [OnEnable ex_A; OnIteration ex_A 20; OnIteration ex_A 40; OnDisable ex_A;
                 OnEnable ex_B; OnIteration ex_B 0; OnIteration ex_B 20; OnIteration ex_B 40;
                 OnDisable ex_B]%Z.
Proof.
  eexists. split; [vm_compute; reflexivity|]. split; [reflexivity|].
  split; [unfold clock_monotone; simpl; intuition discriminate|reflexivity].
Qed.

(* a run() period during whose second pass an iter_fn hook calls disable(), the
   driver station staying in autonomous+enabled for two more passes: the mode
   hears nothing after its on_disable; the next period works as usual *)
Example ex_disable_mid_run :
  exists r, discover false ex_pkg = Built r /\
  let ops := [RunPeriod (None, None) 100
                [(100, true, false); (120, true, true); (140, true, false); (160, true, false); (180, false, false)];
              RunPeriod (Some "two", None) 200 [(200, true, false); (220, false, false)]]%Z in
  well_formed ops = true /\ clock_monotone ops /\
  trace r ops = [OnEnable ex_A; OnIteration ex_A 0; OnIteration ex_A 20; OnDisable ex_A;
                 OnEnable ex_B; OnIteration ex_B 0; OnDisable ex_B]%Z.
Proof.
  eexists. split; [vm_compute; reflexivity|]. split; [reflexivity|].
  split; [unfold clock_monotone; simpl; intuition discriminate|reflexivity].
Qed.

(* robot/autonomous/__init__.py does "import robot.helpers", which does not exist:
   raised; so is "from . import helper" (a plain ImportError naming the package);
   "robot", "robot.autonomous" -- or "a.b" of "a.b.c" -- not found: tolerated *)
Example ex_package_import :
  init false "robot.autonomous" (ImportRaisesImportError true (Some "robot.helpers")) = Raised ErrPackage [] /\
  init false "robot.autonomous" (ImportRaisesImportError true (Some "robot.autonomous.helper")) = Raised ErrPackage [] /\
  init false "robot.autonomous" (ImportRaisesImportError true (Some "numpy")) = Raised ErrPackage [] /\
  init false "robot.autonomous" (ImportRaisesImportError true (Some "rob")) = Raised ErrPackage [] /\
  init false "robot.autonomous" (ImportRaisesImportError true None) = Raised ErrPackage [] /\
  init false "robot.autonomous" (ImportRaisesImportError false (Some "robot.autonomous")) = Raised ErrPackage [] /\
  init false "robot.autonomous" (ImportRaisesImportError false (Some "robot")) = Raised ErrPackage [] /\
  (exists r, init false "robot.autonomous" (ImportRaisesImportError true (Some "robot.autonomous")) = Built r) /\
  (exists r, init false "robot.autonomous" (ImportRaisesImportError true (Some "robot")) = Built r) /\
  (exists r, init false "a.b.c" (ImportRaisesImportError true (Some "a.b")) = Built r) /\
  dotted_prefix "a.b" "a.b.c" /\ ~ dotted_prefix "a.bc" "a.b.c" /\ ~ dotted_prefix "robot.helpers" "robot.autonomous".
Proof.
  repeat split; try reflexivity; try (eexists; vm_compute; reflexivity).
  - right. exists "c". reflexivity.
  - intros H. apply dotted_prefix_iff in H. discriminate.
  - intros H. apply dotted_prefix_iff in H. discriminate.
Qed.

(* three TimedRobot periods without disable() in between, the chooser selection
   changed from the default to "two" and then to "None": not well-formed in the
   strict sense, covered by C14_lifecycle_any_periods; the third period is silent *)
Example ex_open_periods :
  exists r, discover false ex_pkg = Built r /\
  let ops := [Start (None, None) 100; Periodic 120; Start (None, Some "two") 200; Periodic 220; Periodic 240;
              Start (None, Some "None") 300; Periodic 320; Disable]%Z in
  well_formed ops = false /\ timer_ready false ops = true /\ clock_monotone ops /\
  periods ops = [((None, None), false); ((None, Some "two"), false); ((None, Some "None"), true)] /\
  trace r ops = [OnEnable ex_A; OnIteration ex_A 20; OnEnable ex_B; OnIteration ex_B 20; OnIteration ex_B 40]%Z.
Proof.
  eexists. split; [vm_compute; reflexivity|]. split; [reflexivity|]. split; [reflexivity|].
  split; [unfold clock_monotone; simpl; intuition discriminate|]. split; reflexivity.
Qed.

(* five ways of failing, one healthy mode: raised without FMS at the first of
   them; with FMS all six calls are made and only the healthy mode is offered *)
Definition ex_failing_pkg : package :=
  PkgPresent [
    mkMod "m" "/p/m.py" false
      [mkCls "A" (Some "abstract") false false (fails AbstractClass);
       mkCls "G" (Some "good") false true (fails Constructs);
       mkCls "I" (Some "init") false false (fails InitRaises);
       mkCls "M" (Some "meta") false false (fails MetaCallRaises);
       mkCls "N" (Some "new") false true (fails NewRaises);
       mkCls "W" (Some "wants") false false (fails NeedsArguments)]].

Example ex_failing_constructors :
  discover false ex_failing_pkg = Raised (ErrCtor "/p/m.py" "A") [("/p/m.py", "A")] /\
  In (mkInst "/p/m.py" (mkCls "A" (Some "abstract") false false true)) (needed ex_failing_pkg) /\
  no_key_clash ex_failing_pkg /\
  exists r, discover true ex_failing_pkg = Built r /\
    map snd (ctor_calls r) = ["A"; "G"; "I"; "M"; "N"; "W"] /\
    map fst (modes r) = ["good"] /\ option_names r = ["good"; "None"] /\ preselection r = "good".
Proof.
  split; [reflexivity|]. split; [simpl; auto|]. split; [apply no_key_clash_intro; reflexivity|].
  eexists. split; [vm_compute; reflexivity|]. vm_compute. auto.
Qed.

(* an implicit package whose __path__ is [/a/p; /b/p; /a/p] (sys.path lists /a
   twice, /b contributes another module): two directories, three module files,
   each class called once; exactly what __path__ = [/a/p; /b/p] gives *)
Definition ex_po_a : portion :=
  mkPortion "/a/p" [mkMod "left" "/a/p/left.py" false [mkCls "L" (Some "Left") false true false];
                    mkMod "right" "/a/p/right.py" false [mkCls "R" (Some "Right") false false false]].
Definition ex_po_b : portion :=
  mkPortion "/b/p" [mkMod "mid" "/b/p/mid.py" false [mkCls "M" (Some "Mid") false false false]].

Example ex_namespace_path :
  path_ok [ex_po_a; ex_po_b; ex_po_a] /\
  map pdir (path_dirs [ex_po_a; ex_po_b; ex_po_a]) = ["/a/p"; "/b/p"] /\
  init false "p" (ImportedNamespace [ex_po_a; ex_po_b; ex_po_a]) = init false "p" (ImportedNamespace [ex_po_a; ex_po_b]) /\
  init false "p" (ImportedNamespace [ex_po_a; ex_po_a]) = init false "p" (Imported (pfiles ex_po_a)) /\
  exists r, init false "p" (ImportedNamespace [ex_po_a; ex_po_b; ex_po_a]) = Built r /\
    ctor_calls r = [("/a/p/left.py", "L"); ("/a/p/right.py", "R"); ("/b/p/mid.py", "M")] /\
    map fst (modes r) = ["Left"; "Right"; "Mid"] /\ preselection r = "Left".
Proof.
  split.
  - apply path_ok_intro with [ex_po_a; ex_po_b]; [|now apply has_dup_false..].
    intros a [<-|[<-|[<-|[]]]]; simpl; auto.
  - split; [reflexivity|]. split; [reflexivity|]. split; [reflexivity|].
    eexists. split; [vm_compute; reflexivity|]. vm_compute. auto.
Qed.

(* (defect D15, DESIGN 13.4) /a/p and /b/p both have a left.py; "p.left" is one
   module (class L): it is scanned once, through the file met first -- without FMS
   no "Duplicate name", with FMS no phantom "L_/b/p/left.py"; the last two
   conjuncts: a scan of ALL the files ([path_files], no [unique_names]) raises /
   offers the phantom *)
Definition ex_po_b2 : portion :=
  mkPortion "/b/p" [mkMod "left" "/b/p/left.py" false [mkCls "L" (Some "Left") false true false];
                    mkMod "mid" "/b/p/mid.py" false [mkCls "M" (Some "Mid") false false false]].

Definition ex_left_a := mkMod "left" "/a/p/left.py" false [mkCls "L" (Some "Left") false true false].
Definition ex_right_a := mkMod "right" "/a/p/right.py" false [mkCls "R" (Some "Right") false false false].
Definition ex_left_b := mkMod "left" "/b/p/left.py" false [mkCls "L" (Some "Left") false true false].
Definition ex_mid_b := mkMod "mid" "/b/p/mid.py" false [mkCls "M" (Some "Mid") false false false].

Example ex_same_name_in_two_directories :
  path_ok [ex_po_a; ex_po_b2] /\ name_determines_module [ex_po_a; ex_po_b2] /\ ~ names_distinct [ex_po_a; ex_po_b2] /\
  map file (path_modules [ex_po_a; ex_po_b2]) = ["/a/p/left.py"; "/a/p/right.py"; "/b/p/mid.py"] /\
  map file (path_modules [ex_po_b2; ex_po_a]) = ["/b/p/left.py"; "/b/p/mid.py"; "/a/p/right.py"] /\
  init false "p" (ImportedNamespace [ex_po_a; ex_po_b2]) = init false "p" (ImportedNamespace [ex_po_a; ex_po_b]) /\
  (exists r, init true "p" (ImportedNamespace [ex_po_a; ex_po_b2]) = Built r /\
     ctor_calls r = [("/a/p/left.py", "L"); ("/a/p/right.py", "R"); ("/b/p/mid.py", "M")] /\
     map fst (modes r) = ["Left"; "Right"; "Mid"]) /\
  discover false (PkgPresent (path_files [ex_po_a; ex_po_b2])) =
    Raised (ErrDuplicate "Left" "/b/p/left.py") [("/a/p/left.py", "L"); ("/a/p/right.py", "R"); ("/b/p/left.py", "L")] /\
  (exists r, discover true (PkgPresent (path_files [ex_po_a; ex_po_b2])) = Built r /\
     map fst (modes r) = ["Left"; "Right"; "L_/b/p/left.py"; "Mid"]).
Proof.
  assert (Hin : forall m, in_path [ex_po_a; ex_po_b2] m ->
            ex_left_a = m \/ ex_right_a = m \/ ex_left_b = m \/ ex_mid_b = m).
  { intros m [po [[<-|[<-|[]]] Hm]]; simpl in Hm; tauto. }
  split.
  - apply path_ok_intro with [ex_po_a; ex_po_b2]; [apply incl_refl|now apply has_dup_false..].
  - split.
    { intros m n Hm Hn. apply Hin in Hm. apply Hin in Hn.
      destruct Hm as [<-|[<-|[<-|<-]]], Hn as [<-|[<-|[<-|<-]]]; intros H; try discriminate H; now split. }
    split.
    { intros H.
      assert (E : ex_left_a = ex_left_b); [|discriminate].
      apply H; [exists ex_po_a; simpl; auto|exists ex_po_b2; simpl; auto|reflexivity]. }
    split; [reflexivity|]. split; [reflexivity|]. split; [reflexivity|]. split.
    { eexists. split; [vm_compute; reflexivity|]. vm_compute. auto. }
    split; [reflexivity|]. eexists. split; [vm_compute; reflexivity|]. vm_compute. auto.
Qed.

Print Assumptions C14_constructor_calls.
Print Assumptions C14_instantiated_exactly.
Print Assumptions C14_raise_calls_prefix.
Print Assumptions C14_keyed_by_mode_name.
Print Assumptions C14_offers_none_and_default.
Print Assumptions C14_no_fms_raises_iff.
Print Assumptions C14_missing_package_tolerated.
Print Assumptions C14_fms_never_raises.
Print Assumptions C14_fms_tolerates.
Print Assumptions C14_fms_modes_are_healthy.
Print Assumptions C14_package_import_policy.
Print Assumptions C14_dotted_prefix_is_the_startswith_test.
Print Assumptions C14_package_import_other_exception.
Print Assumptions C14_plain_import_error_raises.
Print Assumptions C14_nameless_module_not_found_raises.
Print Assumptions C14_missing_package_at_any_level_tolerated.
Print Assumptions C14_missing_other_module_raises.
Print Assumptions C14_missing_module_in_namespace_raises.
Print Assumptions C14_missing_submodule_raises.
Print Assumptions C14_missing_sibling_raises.
Print Assumptions C14_init_no_fms_raises_iff.
Print Assumptions C14_init_fms_never_raises.
Print Assumptions C14_failing_constructor_policy.
Print Assumptions C14_modes_are_constructed.
Print Assumptions C14_namespace_path_is_a_set.
Print Assumptions C14_namespace_modules_once.
Print Assumptions C14_namespace_repeated_directory_ignored.
Print Assumptions C14_namespace_instantiated_once.
Print Assumptions C14_namespace_one_file_per_name.
Print Assumptions C14_namespace_shadowed_file_ignored.
Print Assumptions C14_selection_dashboard.
Print Assumptions C14_selection_chooser.
Print Assumptions C14_lifecycle.
Print Assumptions C14_only_selected_modes.
Print Assumptions C14_nothing_after_disable.
Print Assumptions C14_run_period_exact.
Print Assumptions C14_run_period_undisturbed.
Print Assumptions C14_run_period_disable_mid.
Print Assumptions C14_timed_period_exact.
Print Assumptions C14_start_selects_afresh.
Print Assumptions C14_run_period_exact_any.
Print Assumptions C14_period_after_open_period.
Print Assumptions C14_lifecycle_any_periods.
Print Assumptions C14_only_selected_modes_any_periods.
Print Assumptions C14_package_failure_policy.
Print Assumptions C14_fms_key_clash_refuted.
Print Assumptions C14_mode_called_None_refuted.
Print Assumptions C14_ill_formed_refuted.
