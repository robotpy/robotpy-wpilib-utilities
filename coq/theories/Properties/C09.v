(* C09 -- tunables are per-instance NetworkTables values at the documented key.
   The theorems are statements closed by a lemma of Tunable.Proofs (or a
   one-line term over such lemmas).  The examples at the end are concrete
   histories and tables.  What a run emits and what a table holds is closed by
   evaluation.  The hypotheses that quantify are closed otherwise: over the
   members of a class through [forallb_forall] or by cases on [In]
   ([C09_nv_hyps], [C09_nv_hierarchy], [C09_nv_class_change]); [bound_under]
   from [C09_setup_bound_under] and [C09_bound_under_stable] ([C09_nv_hyps]);
   "no topic is stamped later than the clock" holds of [g0], which has no
   stamps ([C09_nv_time]), and after its one timely Setup by
   [Proofs.gstep_ok_all], the step lemma behind [C09_paused_clock_drops_nothing]
   ([C09_nv_loop]).  The size of the grid is computed through [grid_length] /
   [grid_supported] ([C09_nv_grid]).

   Vocabulary: the model is Tunable/Model.v; the predicates the statements use
   about it -- [no_setup], [nt_val], [bound_under] (over [keys_under]),
   [op_on], [written_hint] -- are defined in Tunable/Proofs.v, next to their
   lemmas.  [owner_key o subtable attr] is the f-string of
   setup_tunables for the three owner kinds as MagicRobot binds them
   ("components"/cname, "autonomous"/MODE_NAME, None/"robot"); a [world] is the
   NetworkTables map plus, per instance, the map  tunable |-> entry  that
   setup_tunables stores in [_tunables]; a history is a list of
   [Setup | PyWrite | PyRead | NtWrite | NtRead] over any number of instances;
   [py_read w i a] is what the descriptor's __get__ returns.
   Out of the model (ntcore): a topic that already exists with another type,
   values that do not fit the topic type and are rejected by pybind (what an
   entry makes of an accepted value is [entry_value]), the network; a class
   binding one tunable object under two public names ([prog_class] = None). *)
From Coq Require Import String List Bool ZArith NArith.
From RV Require Import Tunable.Model Tunable.Proofs.
Import ListNotations.
Open Scope string_scope.

(* ---- the documented key ------------------------------------------- *)

(* /components/N/A, /autonomous/N/A, /robot/A; a non-empty subtable S is
   inserted before A; for every N, A, S *)
Theorem C09_key : forall N A S, S <> "" ->
  owner_key (OComponent N) None A = "/components/" ++ N ++ "/" ++ A /\
  owner_key (OAutonomous N) None A = "/autonomous/" ++ N ++ "/" ++ A /\
  owner_key ORobot None A = "/robot/" ++ A /\
  owner_key (OComponent N) (Some S) A = "/components/" ++ N ++ "/" ++ S ++ "/" ++ A /\
  owner_key (OAutonomous N) (Some S) A = "/autonomous/" ++ N ++ "/" ++ S ++ "/" ++ A /\
  owner_key ORobot (Some S) A = "/robot/" ++ S ++ "/" ++ A.
Proof.
  exact (fun N A S H =>
    conj eq_refl (conj eq_refl (conj eq_refl
      (conj (key_verbatim _ _ S A H) (conj (key_verbatim _ _ S A H) (key_verbatim _ _ S A H)))))).
Qed.

(* a successful Setup binds every public tunable of the class (distinct
   attribute names) to exactly that key, with the topic type of its
   declaration, in the instance's own map *)
Theorem C09_setup_binds_key : forall w i cls p c d,
  NoDup (map d_attr cls) -> In d cls -> public d = true ->
  snd (step w (Setup i cls p c)) = EvSetup true ->
  exists b ty, inst_get (w_inst (fst (step w (Setup i cls p c)))) i = Some b /\
    decl_topic (d_default d) (d_hint d) = Ok ty /\
    bind_get b (d_attr d) = Some (key_of p c (d_subtable d) (d_attr d), ty, entry_value ty (d_default d)).
Proof. exact setup_binds. Qed.

(* attribute assignment on a bound tunable lands in the topic at its key ... *)
Theorem C09_attr_write_reaches_topic : forall w i b a k ty d v,
  inst_get (w_inst w) i = Some b -> bind_get b a = Some (k, ty, d) ->
  nt_get (w_nt (fst (step w (PyWrite i a v)))) k = Some (ty, entry_value ty v).
Proof. exact bound_write_reaches_topic. Qed.

(* ... and attribute access returns what the topic at its key holds *)
Theorem C09_attr_read_sees_topic : forall w i b a k ty d t v,
  inst_get (w_inst w) i = Some b -> bind_get b a = Some (k, ty, d) ->
  nt_get (w_nt w) k = Some (t, v) -> py_read w i a = EvVal v.
Proof. exact bound_read_sees_topic. Qed.

(* ---- a read returns the latest write from either side -------------- *)

(* [w] is ANY world (any number of instances bound in any way, any topic
   contents); [h] any interleaving of attribute writes/reads on any instances
   and NT-side writes/reads.  [last_write w h k] is the most recent value
   written to topic k in h by an attribute assignment on any instance whose
   tunable is bound to k, or by an NT client. *)
Theorem C09_read_latest : forall w h i b a k ty d,
  no_setup h = true ->
  inst_get (w_inst w) i = Some b -> bind_get b a = Some (k, ty, d) ->
  py_read (fst (run w h)) i a =
  match last_write w h k with Some v => EvVal v | None => py_read w i a end.
Proof. exact read_latest. Qed.

(* the same for a read in the middle of a history: the event it emits *)
Theorem C09_read_latest_event : forall w h1 h2 i b a k ty d,
  no_setup h1 = true ->
  inst_get (w_inst w) i = Some b -> bind_get b a = Some (k, ty, d) ->
  nth (length h1) (snd (run w (h1 ++ PyRead i a :: h2)%list)) EvErr =
  match last_write w h1 k with Some v => EvVal v | None => py_read w i a end.
Proof. exact read_latest_event. Qed.

(* in particular after an arbitrary earlier history h0 (with Setups, re-binding
   under other names, pre-published values ...) *)
Theorem C09_read_latest_after_any_history : forall h0 h i b a k ty d,
  no_setup h = true ->
  inst_get (w_inst (fst (run w0 h0))) i = Some b -> bind_get b a = Some (k, ty, d) ->
  py_read (fst (run (fst (run w0 h0)) h)) i a =
  match last_write (fst (run w0 h0)) h k with
  | Some v => EvVal v
  | None => py_read (fst (run w0 h0)) i a
  end.
Proof. exact (fun h0 => read_latest (fst (run w0 h0))). Qed.

(* an NT client reading the key sees the same latest value *)
Theorem C09_nt_read_latest : forall w h k,
  no_setup h = true ->
  nt_val (w_nt (fst (run w h))) k =
  match last_write w h k with Some v => Some v | None => nt_val (w_nt w) k end.
Proof. exact nt_read_latest. Qed.

(* ---- instances under different names never share ------------------- *)

(* Hypothesis stated: component / mode names contain no "/"
   ([owner_name_ok]).  Then the key sets of two different owners are disjoint,
   whatever the subtables and attribute names are. *)
Theorem C09_keys_disjoint : forall o1 o2 s1 a1 s2 a2,
  owner_name_ok o1 = true -> owner_name_ok o2 = true -> o1 <> o2 ->
  owner_key o1 s1 a1 <> owner_key o2 s2 a2.
Proof. exact owner_keys_disjoint. Qed.

(* a Setup under owner o leaves the instance bound under o, and only another
   Setup of the same instance can change that *)
Theorem C09_setup_bound_under : forall w i cls o,
  snd (step w (Setup i cls (owner_prefix o) (owner_cname o))) = EvSetup true ->
  bound_under (fst (step w (Setup i cls (owner_prefix o) (owner_cname o)))) i o.
Proof. exact setup_bound_under. Qed.

Theorem C09_bound_under_stable : forall w i o x,
  (forall cls p c, x <> Setup i cls p c) ->
  bound_under w i o -> bound_under (fst (step w x)) i o.
Proof. exact bound_under_other. Qed.

(* no operation on instance j -- attribute writes, reads, even setting it up
   again under its owner o2 -- changes what any attribute of instance i,
   bound under a different owner o1, reads *)
Theorem C09_instances_independent : forall h w i j o1 o2,
  i <> j -> o1 <> o2 -> owner_name_ok o1 = true -> owner_name_ok o2 = true ->
  bound_under w i o1 -> bound_under w j o2 ->
  Forall (op_on j o2) h ->
  forall a, py_read (fst (run w h)) i a = py_read w i a.
Proof. exact instances_independent. Qed.

(* ---- writeDefault --------------------------------------------------- *)

(* at setup (attribute names distinct and "/"-free, as dir() of a Python class
   gives them) the topic of every public tunable holds the default when
   writeDefault is true or the topic had no value, and keeps its previous
   value (and type) otherwise *)
Theorem C09_write_default : forall w i cls p c d,
  NoDup (map d_attr cls) -> (forall d, In d cls -> no_slash (d_attr d) = true) ->
  In d cls -> public d = true ->
  snd (step w (Setup i cls p c)) = EvSetup true ->
  exists ty, decl_topic (d_default d) (d_hint d) = Ok ty /\
  nt_get (w_nt (fst (step w (Setup i cls p c)))) (key_of p c (d_subtable d) (d_attr d)) =
  if d_wd d then Some (ty, entry_value ty (d_default d))
  else match nt_get (w_nt w) (key_of p c (d_subtable d) (d_attr d)) with
       | Some tv => Some tv
       | None => Some (ty, entry_value ty (d_default d))
       end.
Proof. exact setup_write_default. Qed.

(* what setup must not change: every topic that is not a key of the class *)
Theorem C09_setup_untouched : forall w i cls p c k,
  (forall d, In d cls -> public d = true -> key_of p c (d_subtable d) (d_attr d) <> k) ->
  nt_get (w_nt (fst (step w (Setup i cls p c)))) k = nt_get (w_nt w) k.
Proof. exact setup_untouched. Qed.

(* ---- topic type ----------------------------------------------------- *)

(* for EVERY default and (optional) hint: the class statement yields the topic
   of the documented table [spec_decl], and raises exactly where that table
   has no entry *)
Theorem C09_topic_type : forall d h, res_to_option (decl_topic d h) = spec_decl d h.
Proof. exact decl_topic_spec. Qed.

(* in particular on the finite grid the correspondence check runs through
   ([grid_decls]): {bool,int,float,str,bytes,struct x2,other} x {scalar truthy/
   falsy, empty, homogeneous and mixed list/tuple} x {no hint, T, bare, list[T],
   Sequence[T], tuple[T], tuple[T,...], tuple[T,T], tuple[T,T,T], tuple[T,U] ...} *)
Theorem C09_topic_type_grid : forall d h, In (d, h) grid_decls ->
  res_to_option (decl_topic d h) = spec_decl d h.
Proof. exact (fun d h _ => decl_topic_spec d h). Qed.

(* the table, readable: scalars by their type (falsy ones included) *)
Theorem C09_topic_scalar : forall b z n s l sn f,
  topic_of_default (VScalar (SBool b)) = Some NBoolean /\
  topic_of_default (VScalar (SInt z)) = Some NInteger /\
  topic_of_default (VScalar (SFloat n)) = Some NDouble /\
  topic_of_default (VScalar (SStr s)) = Some NString /\
  topic_of_default (VScalar (SBytes l)) = Some NRaw /\
  topic_of_default (VScalar (SStruct sn f)) = Some (NStruct sn) /\
  topic_of_default (VScalar SOther) = None.
Proof.
  exact (fun b z n s l sn f =>
    conj (topic_default_scalar (SBool b)) (conj (topic_default_scalar (SInt z))
    (conj (topic_default_scalar (SFloat n)) (conj (topic_default_scalar (SStr s))
    (conj (topic_default_scalar (SBytes l)) (conj (topic_default_scalar (SStruct sn f))
          (topic_default_scalar SOther))))))).
Qed.

(* non-empty lists and tuples: the array topic of the first element's type
   (bool, int, float, str, struct; none for bytes and anything else) *)
Theorem C09_topic_array : forall e l,
  topic_of_default (VList (e :: l)) = spec_array (base_of e) /\
  topic_of_default (VTuple (e :: l)) = spec_array (base_of e).
Proof. exact topic_default_list. Qed.

(* documented unsupported case: an empty sequence without a type hint *)
Theorem C09_empty_untyped_unsupported :
  topic_of_default (VList []) = None /\ topic_of_default (VTuple []) = None.
Proof. exact topic_default_empty. Qed.

(* with a hint the hint decides, also for empty defaults *)
Theorem C09_topic_hint : forall h d, init_rejects d = false ->
  topic_of_hint h d = spec_hint h.
Proof. exact topic_hint_spec. Qed.

(* tuple hints: supported iff tuple[T, ...] or all arguments the same T *)
Theorem C09_tuple_hint : forall b rest t,
  spec_hint (TGen OTuple (ABase b :: rest)) = Some t <->
  (rest = [AEllipsis] \/ Forall (fun a => a = ABase b) rest) /\ spec_array b = Some t.
Proof. exact tuple_hint_supported. Qed.

(* documented unsupported case: heterogeneous tuples *)
Theorem C09_hetero_tuple_unsupported : forall b c d, b <> c -> init_rejects d = false ->
  topic_of_hint (TGen OTuple [ABase b; ABase c]) d = None.
Proof.
  exact (fun b c d Hne Hd => eq_trans (topic_hint_spec _ d Hd) (tuple_hint_hetero b c Hne)).
Qed.

(* ---- how the hint is written ------------------------------------------ *)

(* Vocabulary: a tunable is written  x [: ann] = tunable[orig](default).
   [mksrc orig ann] is that class-body line: [orig] the subscript (if any),
   [ann] what the class body left in __annotations__ -- the evaluated object
   (RObj), a str with the source text (RStr: every annotation of a module with
   `from __future__ import annotations`, or a hint in quotes) or an object with
   a quoted argument (RFwd).  [spell sp H] writes the hint H in spelling sp:
   tunable[H](..), or an annotation H / tunable[H] / ClassVar[H] /
   ClassVar[tunable[H]], each as object, as string or with a forward
   reference.  [decl_topic_src] is the class statement from that line. *)

(* every accepted spelling of H makes __set_name__ resolve the topic type from
   H itself; [all_spellings] lists them all *)
Theorem C09_hint_spelling : forall sp h,
  In sp all_spellings /\ set_name_hint (spell sp h) = Some h.
Proof. exact (fun sp h => conj (all_spellings_complete sp) (spelled_hint sp h)). Qed.

(* for every class-body line: the subscript decides if present, else the H
   inside the evaluated annotation, else there is no hint *)
Theorem C09_hint_resolution : forall o r,
  set_name_hint (mksrc o r) =
  match o with
  | Some h => Some h
  | None => option_map (fun x => written_hint (get_type_hints x)) r
  end.
Proof. exact set_name_hint_char. Qed.

(* a postponed / quoted annotation (and one with a quoted argument) yields
   the same topic type, or the same rejection, as the evaluated annotation *)
Theorem C09_postponed_annotation : forall d o a,
  decl_topic_src d (mksrc o (Some (RStr a))) = decl_topic_src d (mksrc o (Some (RObj a))) /\
  decl_topic_src d (mksrc o (Some (RFwd a))) = decl_topic_src d (mksrc o (Some (RObj a))).
Proof. exact postponed_annotation_same. Qed.

(* C09_topic_type from the source: for EVERY default, every hint (or none) and
   every spelling the class statement yields the documented table *)
Theorem C09_topic_type_spelled : forall d sp h,
  res_to_option (decl_topic_src d (spell_opt sp h)) = spec_decl d h.
Proof. exact decl_topic_src_spec. Qed.

(* type-hinted empty sequences, in any spelling *)
Theorem C09_hinted_empty_sequence : forall sp b t, spec_array b = Some t ->
  decl_topic_src (VList []) (spell sp (TGen OList [ABase b])) = Ok t /\
  decl_topic_src (VList []) (spell sp (TGen OSeq [ABase b])) = Ok t /\
  decl_topic_src (VTuple []) (spell sp (TGen OSeq [ABase b])) = Ok t /\
  decl_topic_src (VTuple []) (spell sp (TGen OTuple [ABase b; AEllipsis])) = Ok t.
Proof. exact hinted_empty_sequence. Qed.

(* ... and through setup: a tunable whose hint is written in any spelling is
   bound at the documented key with the documented type of (default, hint) *)
Theorem C09_setup_binds_spelled : forall w i cls p c d sp h,
  NoDup (map d_attr cls) -> In d cls -> public d = true ->
  d_hint d = set_name_hint (spell_opt sp h) ->
  snd (step w (Setup i cls p c)) = EvSetup true ->
  exists b ty, inst_get (w_inst (fst (step w (Setup i cls p c)))) i = Some b /\
    spec_decl (d_default d) h = Some ty /\
    bind_get b (d_attr d) = Some (key_of p c (d_subtable d) (d_attr d), ty, entry_value ty (d_default d)).
Proof. exact setup_binds_spelled. Qed.

(* ---- the owner's truthiness plays no role ----------------------------- *)

(* Vocabulary: an owner OBJECT is [(i, t)]: its identity i and how bool() of it
   comes out at present, [t : truth] = TPlain (ordinary class, always true) |
   TLen n (the class defines __len__: false while n = 0) | TBool b (the class
   defines __bool__).  [tunable_get w instance a] is tunable.__get__ (instance
   = None for access through the class), [tunable_set] is __set__.  An [xop]
   history interleaves the operations above with [XSetTruth i t] (the owner's
   state changes: a container-like component empties / fills up, a gate opens
   / closes); [erase h] is the same history on ordinary objects. *)

(* reading through an instance returns what its entry holds -- for EVERY
   truthiness of the instance, the falsy ones (TLen 0, TBool false) included;
   only access through the class yields the tunable object itself *)
Theorem C09_read_ignores_truthiness : forall w i t a,
  tunable_get w (Some (i, t)) a = GResult (py_read w i a) /\
  tunable_get w None a = GSelf.
Proof. exact (fun w i t a => conj (tunable_get_instance w i t a) (tunable_get_class w a)). Qed.

(* "reading the attribute always returns the latest value set from either
   side": any world, any interleaving h of attribute writes/reads, NT-side
   writes/reads AND truthiness changes of any owners; the read happens on an
   owner whose bool() is anything at that moment (t arbitrary) *)
Theorem C09_read_latest_falsy_owner : forall x h i t b a k ty d,
  no_setup (erase h) = true ->
  inst_get (w_inst (x_w x)) i = Some b -> bind_get b a = Some (k, ty, d) ->
  tunable_get (x_w (fst (xrun x h))) (Some (i, t)) a =
  GResult (match last_write (x_w x) (erase h) k with
           | Some v => EvVal v
           | None => py_read (x_w x) i a
           end).
Proof. exact read_latest_any_truth. Qed.

(* the event the read emits inside such a history (the model takes the
   truthiness the owner has at that point of the history) *)
Theorem C09_read_latest_event_falsy_owner : forall x h1 h2 i b a k ty d,
  no_setup (erase h1) = true ->
  inst_get (w_inst (x_w x)) i = Some b -> bind_get b a = Some (k, ty, d) ->
  nth (length h1) (snd (xrun x (h1 ++ XOp (PyRead i a) :: h2)%list)) XDone =
  XEv (match last_write (x_w x) (erase h1) k with
       | Some v => EvVal v
       | None => py_read (x_w x) i a
       end).
Proof. exact read_latest_event_any_truth. Qed.

(* every history (Setups included) emits, operation by operation, the events
   of the same history on ordinary always-true owners, and leaves the same
   NetworkTables contents and bindings: all theorems above carry over *)
Theorem C09_truthiness_irrelevant : forall h x,
  x_w (fst (xrun x h)) = fst (run (x_w x) (erase h)) /\
  xevents (snd (xrun x h)) = map Some (snd (run (x_w x) (erase h))).
Proof. exact xrun_erase. Qed.

(* two runs that differ only in the owners' truthiness (initially and in
   when / how it changes) cannot be told apart *)
Theorem C09_truthiness_unobservable : forall h1 h2 x1 x2,
  x_w x1 = x_w x2 -> erase h1 = erase h2 ->
  xevents (snd (xrun x1 h1)) = xevents (snd (xrun x2 h2)) /\
  x_w (fst (xrun x1 h1)) = x_w (fst (xrun x2 h2)).
Proof. exact truthiness_unobservable. Qed.

(* no attribute read on an instance ever hands back the tunable object *)
Theorem C09_read_never_returns_descriptor : forall h x, ~ In XSelf (snd (xrun x h)).
Proof. exact read_never_self. Qed.

(* attribute assignment on an owner of any truthiness lands in its topic *)
Theorem C09_write_falsy_owner : forall w i t b a k ty d v,
  inst_get (w_inst w) i = Some b -> bind_get b a = Some (k, ty, d) ->
  nt_get (w_nt (fst (tunable_set w (i, t) a v))) k = Some (ty, entry_value ty v).
Proof. exact write_reaches_topic_any_truth. Qed.

(* what a truthiness change must not change: NetworkTables, the bindings, and
   the truthiness of every other owner *)
Theorem C09_set_truth_changes_nothing_else : forall x i t,
  x_w (fst (xstep x (XSetTruth i t))) = x_w x /\
  truth_get (x_truth (fst (xstep x (XSetTruth i t)))) i = t /\
  forall j, j <> i ->
    truth_get (x_truth (fst (xstep x (XSetTruth i t)))) j = truth_get (x_truth x) j.
Proof. exact set_truth_changes_nothing. Qed.

(* ---- class hierarchies: a redefined tunable shadows ------------------- *)

(* Vocabulary: a class is given by its MRO, [mro = [vars(k) for k in
   cls.__mro__]] (the class itself first, then its bases in linearised order);
   a class body binds a name to a tunable ([MTun d], name [d_attr d]) or to
   something else ([MPlain name]).  [class_getattr mro n] is getattr(cls, n):
   the first class of the MRO whose body binds n.  [class_members mro] is what
   the loop head of setup_tunables (`for n in dir(cls): prop = getattr(cls, n);
   if not isinstance(prop, tunable): continue`) yields; [setup_class i mro p c]
   is setup_tunables on an instance of that class. *)

(* the loop sees exactly the tunable that attribute lookup on the class finds
   under each name, and one tunable per attribute name *)
Theorem C09_class_members : forall mro,
  (forall d, In d (class_members mro) <-> class_getattr mro (d_attr d) = Some (MTun d)) /\
  NoDup (map d_attr (class_members mro)).
Proof. exact (fun mro => conj (class_members_char mro) (class_members_nodup mro)). Qed.

(* the classes before C in the MRO do not bind the name, C binds it to the
   tunable d: then the class has d under that name and no other tunable,
   whatever the base classes after C declare under the same name *)
Theorem C09_redefinition_shadows : forall pre C post d,
  (forall b, In b pre -> body_get b (d_attr d) = None) ->
  body_get C (d_attr d) = Some (MTun d) ->
  class_getattr (pre ++ C :: post) (d_attr d) = Some (MTun d) /\
  In d (class_members (pre ++ C :: post)) /\
  forall d', In d' (class_members (pre ++ C :: post)) -> d_attr d' = d_attr d -> d' = d.
Proof. exact redefinition_shadows. Qed.

(* a name the class resolves to a non-tunable is not a tunable of the class,
   even when a base class declares a tunable of that name *)
Theorem C09_plain_member_shadows : forall mro n,
  class_getattr mro n = Some (MPlain n) ->
  forall d, In d (class_members mro) -> d_attr d <> n.
Proof. exact plain_member_shadows. Qed.

(* setup of an instance of such a class (names "/"-free): the definition d
   that attribute lookup finds under the name A is bound at the documented key
   with its topic type, and ITS default and ITS writeDefault flag decide what
   the topic holds -- the default when writeDefault is true or the topic had
   no value, else the previous (type, value) *)
Theorem C09_setup_hierarchy : forall w i mro p c d,
  (forall b m, In b mro -> In m b -> no_slash (member_name m) = true) ->
  class_getattr mro (d_attr d) = Some (MTun d) -> public d = true ->
  snd (step w (setup_class i mro p c)) = EvSetup true ->
  exists b ty, inst_get (w_inst (fst (step w (setup_class i mro p c)))) i = Some b /\
    decl_topic (d_default d) (d_hint d) = Ok ty /\
    bind_get b (d_attr d) = Some (key_of p c (d_subtable d) (d_attr d), ty, entry_value ty (d_default d)) /\
    nt_get (w_nt (fst (step w (setup_class i mro p c)))) (key_of p c (d_subtable d) (d_attr d)) =
    if d_wd d then Some (ty, entry_value ty (d_default d))
    else match nt_get (w_nt w) (key_of p c (d_subtable d) (d_attr d)) with
         | Some tv => Some tv
         | None => Some (ty, entry_value ty (d_default d))
         end.
Proof. exact setup_hierarchy. Qed.

(* ... and the attribute reads exactly that right after the setup *)
Theorem C09_setup_hierarchy_read : forall w i mro p c d,
  (forall b m, In b mro -> In m b -> no_slash (member_name m) = true) ->
  class_getattr mro (d_attr d) = Some (MTun d) -> public d = true ->
  snd (step w (setup_class i mro p c)) = EvSetup true ->
  exists ty, decl_topic (d_default d) (d_hint d) = Ok ty /\
  py_read (fst (step w (setup_class i mro p c))) i (d_attr d) =
  EvVal (if d_wd d then entry_value ty (d_default d)
         else match nt_get (w_nt w) (key_of p c (d_subtable d) (d_attr d)) with
              | Some (_, v) => v
              | None => entry_value ty (d_default d)
              end).
Proof. exact setup_hierarchy_read. Qed.

(* what it must not touch: every topic that is not the key of a tunable the
   class resolves a public name to (e.g. the key a shadowed definition with
   another subtable, or a tunable shadowed by a plain attribute, would have) *)
Theorem C09_setup_hierarchy_untouched : forall w i mro p c k,
  (forall d, class_getattr mro (d_attr d) = Some (MTun d) -> public d = true ->
             key_of p c (d_subtable d) (d_attr d) <> k) ->
  nt_get (w_nt (fst (step w (setup_class i mro p c)))) k = nt_get (w_nt w) k.
Proof. exact setup_hierarchy_untouched. Qed.

(* when every class statement of the hierarchy executes (shadowed tunables
   included), the setup succeeds *)
Theorem C09_hierarchy_setup_succeeds : forall w i mro p c,
  hier_defined mro = true -> snd (step w (setup_class i mro p c)) = EvSetup true.
Proof. exact hierarchy_setup_succeeds. Qed.

(* ---- what a typed entry stores --------------------------------------- *)

(* Vocabulary: [entry_value ty v] is what an entry of topic type [ty] makes of
   the Python object v handed to getEntry(default) / set / setDefault: tuples
   arrive as lists, and along Python's numeric tower an int (or bool) handed to
   a double entry arrives as that float, a bool handed to an int entry as 0/1
   (pybind; anything else that is not of the topic's type is rejected there
   and outside the model).  [fits ty v]: v is a value of the topic's type.
   The topic type comes from the HINT when there is one (C09_topic_type), so
   `kp: float = tunable(0)` is a double topic whose default literal is an int. *)

(* a value of the topic's type is stored as it is *)
Theorem C09_typed_value_unchanged : forall ty v, fits ty v = true -> entry_value ty v = canon v.
Proof. exact entry_value_fits. Qed.

(* an int on a double topic is the same number, as a float ([SFloat n] is n/64) *)
Theorem C09_int_on_double_topic : forall z,
  entry_value NDouble (VScalar (SInt z)) = VScalar (SFloat (64 * z)) /\
  forall l, entry_value NDoubleArr (VList (map SInt l)) = VList (map (fun z => SFloat (64 * z)) l) /\
            entry_value NDoubleArr (VTuple (map SInt l)) = VList (map (fun z => SFloat (64 * z)) l).
Proof. exact entry_value_int_on_double. Qed.

(* instance.attr = v; instance.attr  returns what the entry made of v ... *)
Theorem C09_write_reads_back : forall w i b a k ty d v,
  inst_get (w_inst w) i = Some b -> bind_get b a = Some (k, ty, d) ->
  py_read (fst (step w (PyWrite i a v))) i a = EvVal (entry_value ty v).
Proof. exact py_write_read_back. Qed.

(* ... so a python-side write of ANY value of the topic's type is what the
   topic holds and what the next read returns -- whatever the entry's default
   [d] is *)
Theorem C09_write_of_topic_type_reads_back : forall w i b a k ty d v,
  inst_get (w_inst w) i = Some b -> bind_get b a = Some (k, ty, d) -> fits ty v = true ->
  py_read (fst (step w (PyWrite i a v))) i a = EvVal (canon v) /\
  nt_get (w_nt (fst (step w (PyWrite i a v)))) k = Some (ty, canon v).
Proof. exact write_typed_value_reads_back. Qed.

(* through setup: [ty] is the topic type of the declaration (hint first, else
   default); the Python type of the default plays no role in what a later
   assignment of a value of type [ty] stores *)
Theorem C09_setup_then_write_reads_back : forall w i cls p c d v,
  NoDup (map d_attr cls) -> In d cls -> public d = true ->
  snd (step w (Setup i cls p c)) = EvSetup true ->
  exists ty, decl_topic (d_default d) (d_hint d) = Ok ty /\
    (fits ty v = true ->
     py_read (fst (step (fst (step w (Setup i cls p c))) (PyWrite i (d_attr d) v))) i (d_attr d)
       = EvVal (canon v) /\
     nt_get (w_nt (fst (step (fst (step w (Setup i cls p c))) (PyWrite i (d_attr d) v))))
            (key_of p c (d_subtable d) (d_attr d)) = Some (ty, canon v)).
Proof. exact setup_then_write_reads_back. Qed.

(* ---- one tunable object, several classes, each under its own name ----- *)

(* Vocabulary (Model section 12): a [program] is the tunable OBJECTS it creates
   ([tobj]: default, subscript hint, subtable, writeDefault -- no name) and its
   class statements in execution order; a class body line is [OTun name oid ann]
   (name [: ann] = object number oid) or [OPlain name].  A class is given by the
   positions [ixs] of the class statements of its MRO.  [obj_hint pr oid] is the
   hint behind the object's _topic_type slot = what the LAST __set_name__ call
   of the whole program resolved.  [prog_class pr ixs] are the tunables of the
   class as the loop of setup_tunables meets them; it is None for a class that
   resolves two public names to ONE object (outside the model, see Model.v). *)

(* [pr] is ANY program -- any other classes may bind the object under any other
   names, before or after this class.  For the class that resolves the public
   name n to the object, a successful setup binds instance.n at
   <prefix>/<cname>/[the object's subtable/]n  with n the name in THIS class,
   and the object's default / writeDefault flag decide what the topic holds *)
Theorem C09_shared_object_key : forall w i pr ixs om cls p c n oid ann o,
  prog_stmts pr ixs = Some om -> prog_class pr ixs = Some cls ->
  (forall b ob, In b om -> In ob b -> no_slash (obind_name ob) = true) ->
  omro_getattr om n = Some (OTun n oid ann) ->
  nth_error (p_objs pr) oid = Some o ->
  starts_with "_" n = false ->
  snd (step w (Setup i cls p c)) = EvSetup true ->
  exists b ty, inst_get (w_inst (fst (step w (Setup i cls p c)))) i = Some b /\
    decl_topic (t_default o) (obj_hint pr oid) = Ok ty /\
    bind_get b n = Some (key_of p c (t_subtable o) n, ty, entry_value ty (t_default o)) /\
    nt_get (w_nt (fst (step w (Setup i cls p c)))) (key_of p c (t_subtable o) n) =
    if t_wd o then Some (ty, entry_value ty (t_default o))
    else match nt_get (w_nt w) (key_of p c (t_subtable o) n) with
         | Some tv => Some tv
         | None => Some (ty, entry_value ty (t_default o))
         end.
Proof. exact shared_object_setup. Qed.

(* the hint behind the topic type of a shared object: when every class body
   that binds it resolves the same hint hh, that one *)
Theorem C09_shared_object_hint : forall pr oid o hh,
  nth_error (p_objs pr) oid = Some o ->
  (exists stmt n ann, In stmt (p_stmts pr) /\ In (OTun n oid ann) stmt) ->
  (forall stmt n ann, In stmt (p_stmts pr) -> In (OTun n oid ann) stmt ->
                      set_name_hint (mksrc (t_orig o) ann) = hh) ->
  obj_hint pr oid = hh.
Proof. exact shared_object_hint. Qed.

(* a subscript on the object ( tunable[H](..) ) always decides *)
Theorem C09_shared_object_hint_subscript : forall pr oid o h,
  nth_error (p_objs pr) oid = Some o -> t_orig o = Some h ->
  (exists stmt n ann, In stmt (p_stmts pr) /\ In (OTun n oid ann) stmt) ->
  obj_hint pr oid = Some h.
Proof. exact shared_object_hint_subscript. Qed.

(* the documented table for a shared object whose binders all write the hint h
   (or none), each in any accepted spelling *)
Theorem C09_shared_object_topic_type : forall pr oid o h,
  nth_error (p_objs pr) oid = Some o ->
  (exists stmt n ann, In stmt (p_stmts pr) /\ In (OTun n oid ann) stmt) ->
  (forall stmt n ann, In stmt (p_stmts pr) -> In (OTun n oid ann) stmt ->
                      exists sp, mksrc (t_orig o) ann = spell_opt sp h) ->
  res_to_option (decl_topic (t_default o) (obj_hint pr oid)) = spec_decl (t_default o) h.
Proof. exact shared_object_topic_type. Qed.

(* ---- the clock and the timestamps of NetworkTables values ------------- *)

(* Vocabulary (Model section 13).  Every NT value carries a timestamp; a client
   may supply it ([stampsel]: SNow = the NT clock, SSame = the timestamp of the
   value the topic holds now, SOlder = one microsecond before that, SAt t);
   ntcore drops an update that is older than the value the topic holds.  The
   NT clock ([g_now]) is stepped by [GTick d] -- it stands still in between
   (the paused simulation clock of robot tests: everything between two steps
   carries ONE timestamp; d = 1 per operation: a running clock).  [gworld] =
   the world of the sections above + clock + per-topic timestamps
   ([g_stamps], [stamp_get]) + the classes as they are now; [gop] = an
   operation of the sections above ([GX]; its writes happen at the clock's
   time), [GTick], [GNtWriteAt key ty v sel], [GNtStamp key], [GClassAssign],
   [GSetupOf]; [grun] yields per operation its event and whether ntcore
   accepted its writes ([all_accepted]).  [gerase cl h] is the same history
   with clock, timestamps and class changes forgotten (an [xop] history of the
   sections above, every setup with the tunables its class has at that
   moment), [gevents] the events of the operations that survive. *)

(* whatever the clock does and however the clients stamp their updates: as
   long as ntcore drops no update as stale, the history behaves -- NT
   contents, bindings, every event -- as if there were no timestamps at all.
   tunable.__get__ returns what the entry holds; WHEN that value was stamped
   plays no role. *)
Theorem C09_time_irrelevant : forall h g,
  all_accepted (snd (grun g h)) = true ->
  g_x (fst (grun g h)) = fst (xrun (g_x g) (gerase (g_classes g) h)) /\
  gevents (snd (grun g h)) = snd (xrun (g_x g) (gerase (g_classes g) h)).
Proof. exact grun_erase. Qed.

(* nothing is dropped when no topic carries a timestamp from the future, the
   clock never runs backwards (steps of size 0 included: a PAUSED clock) and
   clients stamp with "now" or "the same as the value being replaced" *)
Theorem C09_paused_clock_drops_nothing : forall h g,
  (forall k, (stamp_get (g_stamps g) k <= g_now g)%Z) ->
  forallb gop_timely h = true ->
  all_accepted (snd (grun g h)) = true.
Proof. exact timely_all_accepted. Qed.

(* C09's read clause with the clock in the picture: after ANY such history
   without re-binding -- attribute writes and reads, client writes stamped
   "now" or with the SAME timestamp as the value they replace, clock steps of
   any size >= 0, truthiness changes -- reading i.a (owner of any truthiness)
   gives the most recent write to its key, also when that write carries the
   very timestamp of the value the instance read before *)
Theorem C09_read_latest_any_time : forall g h i t b a k ty d,
  (forall k', (stamp_get (g_stamps g) k' <= g_now g)%Z) ->
  forallb gop_timely h = true ->
  no_setup (erase (gerase (g_classes g) h)) = true ->
  inst_get (w_inst (x_w (g_x g))) i = Some b -> bind_get b a = Some (k, ty, d) ->
  tunable_get (x_w (g_x (fst (grun g h)))) (Some (i, t)) a =
  GResult (match last_write (x_w (g_x g)) (erase (gerase (g_classes g) h)) k with
           | Some v => EvVal v
           | None => py_read (x_w (g_x g)) i a
           end).
Proof. exact read_latest_any_time. Qed.

(* ... and the event such a read emits in the middle of the history *)
Theorem C09_read_latest_event_any_time : forall g h1 h2 i b a k ty d,
  (forall k', (stamp_get (g_stamps g) k' <= g_now g)%Z) ->
  forallb gop_timely (h1 ++ GX (XOp (PyRead i a)) :: h2) = true ->
  no_setup (erase (gerase (g_classes g) h1)) = true ->
  inst_get (w_inst (x_w (g_x g))) i = Some b -> bind_get b a = Some (k, ty, d) ->
  nth (length (gerase (g_classes g) h1))
      (gevents (snd (grun g (h1 ++ GX (XOp (PyRead i a)) :: h2)))) XDone =
  XEv (match last_write (x_w (g_x g)) (erase (gerase (g_classes g) h1)) k with
       | Some v => EvVal v
       | None => py_read (x_w (g_x g)) i a
       end).
Proof. exact read_latest_event_any_time. Qed.

(* the boundary (ntcore, not /repo): an update stamped older than the value
   the topic holds is dropped -- no topic, timestamp or binding changes *)
Theorem C09_stale_update_dropped : forall g k ty v s,
  accepts (stamp_get (g_stamps g) k) (sel_time (g_now g) (stamp_get (g_stamps g) k) s) = false ->
  gstep g (GNtWriteAt k ty v s) = (g, GEv (XEv EvWrote), false).
Proof. exact stale_write_dropped. Qed.

(* ---- classes whose tunables change between two setups ------------------ *)

(* Vocabulary: [GClassAssign c m] is `cls.name = obj` executed after the class
   statement (obj a new tunable [MTun d] or anything else [MPlain name]) on
   class number c; magicbot's StateMachine does it in EVERY instance
   construction (cls.state_names = tunable(..), cls.state_descriptions =
   tunable(..)).  [mro_assign mro m] is the class afterwards.  [GSetupOf i c p n]
   is setup_tunables(instance i of class c, n, p): the class AS IT IS NOW. *)

(* attribute lookup on the class after `cls.name = obj` *)
Theorem C09_class_assign_lookup : forall mro m n,
  class_getattr (mro_assign mro m) n =
  if String.eqb (member_name m) n then Some m else class_getattr mro n.
Proof. exact class_getattr_assign. Qed.

(* it touches nothing else: no topic, no timestamp, the clock, no binding of
   an instance that is set up already, no other class *)
Theorem C09_class_assign_changes_nothing_else : forall g c m,
  let g' := fst (fst (gstep g (GClassAssign c m))) in
  g_x g' = g_x g /\ g_stamps g' = g_stamps g /\ g_now g' = g_now g /\
  snd (gstep g (GClassAssign c m)) = true /\
  forall c', c' <> c -> nth_error (g_classes g') c' = nth_error (g_classes g) c'.
Proof. exact class_assign_changes_nothing_else. Qed.

(* EVERY setup binds the tunables the class has at that moment (however many
   instances of the class were set up before, whatever the class looked like
   then): per public name the tunable attribute lookup finds NOW, at the
   documented key, with its topic type; its default / writeDefault flag decide
   what the topic holds *)
Theorem C09_setup_binds_current_class : forall g i c mro p n d,
  (forall k, (stamp_get (g_stamps g) k <= g_now g)%Z) ->
  nth_error (g_classes g) c = Some mro ->
  (forall b x, In b mro -> In x b -> no_slash (member_name x) = true) ->
  class_getattr mro (d_attr d) = Some (MTun d) -> public d = true ->
  snd (fst (gstep g (GSetupOf i c p n))) = GEv (XEv (EvSetup true)) ->
  snd (gstep g (GSetupOf i c p n)) = true /\
  exists b ty,
    inst_get (w_inst (x_w (g_x (fst (fst (gstep g (GSetupOf i c p n))))))) i = Some b /\
    decl_topic (d_default d) (d_hint d) = Ok ty /\
    bind_get b (d_attr d) =
      Some (key_of p n (d_subtable d) (d_attr d), ty, entry_value ty (d_default d)) /\
    nt_get (w_nt (x_w (g_x (fst (fst (gstep g (GSetupOf i c p n)))))))
           (key_of p n (d_subtable d) (d_attr d)) =
    if d_wd d then Some (ty, entry_value ty (d_default d))
    else match nt_get (w_nt (x_w (g_x g))) (key_of p n (d_subtable d) (d_attr d)) with
         | Some tv => Some tv
         | None => Some (ty, entry_value ty (d_default d))
         end.
Proof. exact setup_binds_current_class. Qed.

(* in particular: after `cls.A = tunable(..)` (= d), an instance that is set
   up next has A bound to THAT tunable *)
Theorem C09_setup_after_class_assign : forall g i c mro p n d,
  (forall k, (stamp_get (g_stamps g) k <= g_now g)%Z) ->
  nth_error (g_classes g) c = Some mro ->
  (forall b x, In b (mro_assign mro (MTun d)) -> In x b -> no_slash (member_name x) = true) ->
  public d = true ->
  let g1 := fst (fst (gstep g (GClassAssign c (MTun d)))) in
  snd (fst (gstep g1 (GSetupOf i c p n))) = GEv (XEv (EvSetup true)) ->
  exists b ty,
    inst_get (w_inst (x_w (g_x (fst (fst (gstep g1 (GSetupOf i c p n))))))) i = Some b /\
    decl_topic (d_default d) (d_hint d) = Ok ty /\
    bind_get b (d_attr d) =
      Some (key_of p n (d_subtable d) (d_attr d), ty, entry_value ty (d_default d)) /\
    nt_get (w_nt (x_w (g_x (fst (fst (gstep g1 (GSetupOf i c p n)))))))
           (key_of p n (d_subtable d) (d_attr d)) =
    if d_wd d then Some (ty, entry_value ty (d_default d))
    else match nt_get (w_nt (x_w (g_x g))) (key_of p n (d_subtable d) (d_attr d)) with
         | Some tv => Some tv
         | None => Some (ty, entry_value ty (d_default d))
         end.
Proof. exact setup_after_class_assign. Qed.

(* ---- subtable strings and owner names with structure ------------------- *)

(* The key is plain string concatenation.  A non-empty subtable string S goes
   in VERBATIM between the owner's table and the attribute name -- a leading
   slash ("/pid" gives  <owner>//pid/A), a trailing one ("limits/" gives
   <owner>/limits//A), "a//b", ".", "..", "cfg/../x" are not interpreted as a
   path: nothing is dropped, collapsed or resolved.  (For names without "/"
   C09_keys_disjoint above already covers ALL subtable strings.) *)
Theorem C09_key_verbatim : forall p c S A, S <> "" ->
  key_of p c (Some S) A = key_prefix p c ++ "/" ++ S ++ "/" ++ A.
Proof. exact key_verbatim. Qed.

(* for EVERY subtable string (or none) and attribute, names with ANY characters
   (slashes, dots included): the same tunable bound under two names of the same
   kind lives at two different topics *)
Theorem C09_key_injective_in_name : forall p c1 c2 s a,
  key_of p c1 s a = key_of p c2 s a -> c1 = c2.
Proof. exact key_of_inj_name. Qed.

Theorem C09_other_name_other_topic : forall p c1 c2 s a,
  c1 <> c2 -> key_of p c1 s a <> key_of p c2 s a.
Proof. exact (fun p c1 c2 s a Hne H => Hne (key_of_inj_name p c1 c2 s a H)). Qed.

(* ... and across components, autonomous modes and the robot *)
Theorem C09_owner_key_injective : forall o1 o2 s a,
  owner_key o1 s a = owner_key o2 s a -> o1 = o2.
Proof. exact owner_key_inj. Qed.

(* ---- accesses made from inside the framework's loop functions ---------- *)

(* Vocabulary (Model 13d): MagicRobot runs the user's code location by
   location -- one PASS of the control loop is teleopPeriodic(), then every
   component's execute() (_enabled_periodic), then the @feedback getters and
   periodic methods (_do_periodics); a pass is the list of its locations, a
   location the list of operations performed there (reads / writes of any
   component's tunables, dashboard updates that arrive meanwhile, the clock
   moving on); [loop_history passes] is the history: their concatenation. *)

(* C09's read clause for an attribute read made from ANY place of ANY pass:
   it gives the most recent write to its key among everything that happened
   before it -- in earlier passes, in the earlier locations of this pass
   (another component's execute(), a dashboard update that arrived after the
   pass had started), earlier in the same function -- else what it read at the
   start.  In particular an assignment made late in a pass is not lost to a
   dashboard update that arrived earlier in that pass. *)
Theorem C09_read_latest_inside_a_pass : forall g before locs1 ops1 i a ops2 locs2 after b k ty d,
  (forall k', (stamp_get (g_stamps g) k' <= g_now g)%Z) ->
  forallb gop_timely
    (loop_history (before ++ [locs1 ++ (ops1 ++ GX (XOp (PyRead i a)) :: ops2) :: locs2] ++ after)%list) = true ->
  no_setup (erase (gerase (g_classes g) (loop_history before ++ concat locs1 ++ ops1)%list)) = true ->
  inst_get (w_inst (x_w (g_x g))) i = Some b -> bind_get b a = Some (k, ty, d) ->
  nth (length (gerase (g_classes g) (loop_history before ++ concat locs1 ++ ops1)%list))
      (gevents (snd (grun g (loop_history
         (before ++ [locs1 ++ (ops1 ++ GX (XOp (PyRead i a)) :: ops2) :: locs2] ++ after)%list)))) XDone =
  XEv (match last_write (x_w (g_x g))
               (erase (gerase (g_classes g) (loop_history before ++ concat locs1 ++ ops1)%list)) k with
       | Some v => EvVal v
       | None => py_read (x_w (g_x g)) i a
       end).
Proof. exact read_latest_inside_a_pass. Qed.

(* whatever framework function an access is made from, it is an access like
   any other: the model runs the flattened history [loop_history passes] and
   nothing else of the passes.  The statement records that: two groupings
   that flatten to the same history are given the same run (equals for
   equals, no property of [grun] enters). *)
Theorem C09_loop_structure_irrelevant : forall g p1 p2,
  loop_history p1 = loop_history p2 -> grun g (loop_history p1) = grun g (loop_history p2).
Proof. exact loop_structure_irrelevant. Qed.

(* ---- non-vacuity ----------------------------------------------------- *)

Definition ex_cls : list decl :=
  [ mkdecl "gain" (VScalar (SFloat 96)) None None true;
    mkdecl "limits" (VTuple []) (Some (TGen OSeq [ABase BInt])) (Some "cfg") false;
    mkdecl "_hidden" (VScalar (SInt 1)) None None true;
    mkdecl "name" (VScalar (SStr "")) None None false ].

Definition ex_h0 : list op :=
  [ NtWrite "/components/ab/name" NString (VScalar (SStr "kept"));
    Setup 0 ex_cls (Some "components") "a";
    Setup 1 ex_cls (Some "components") "ab" ].

Definition ex_h : list op :=
  [ PyWrite 0 "gain" (VScalar (SFloat 64));
    NtWrite "/components/ab/gain" NDouble (VScalar (SFloat 32));
    PyRead 1 "gain";
    NtWrite "/components/a/gain" NDouble (VScalar (SFloat 16));
    PyWrite 1 "limits" (VTuple [SInt 1; SInt 2]);
    NtRead "/components/ab/cfg/limits" ].

(* the class is definable, both Setups succeed, and the run shows what the
   history theorems claim *)
Example C09_nv_run :
  snd (run w0 (ex_h0 ++ ex_h ++ [PyRead 0 "gain"; PyRead 1 "gain"; PyRead 1 "name";
                                   PyRead 0 "name"; PyRead 0 "_hidden"; PyRead 2 "gain"])%list) =
  [ EvWrote; EvSetup true; EvSetup true;
    EvWrote; EvWrote; EvVal (VScalar (SFloat 32)); EvWrote; EvWrote;
    EvNt (Some (NIntegerArr, VList [SInt 1; SInt 2]));
    EvVal (VScalar (SFloat 16)); EvVal (VScalar (SFloat 32)); EvVal (VScalar (SStr "kept"));
    EvVal (VScalar (SStr "")); EvErr; EvErr ].
Proof. vm_compute. reflexivity. Qed.

(* the hypotheses of those theorems, met by [ex_cls], [ex_h0] and [ex_h] *)
Example C09_nv_hyps :
  no_setup ex_h = true /\
  NoDup (map d_attr ex_cls) /\ (forall d, In d ex_cls -> no_slash (d_attr d) = true) /\
  bound_under (fst (run w0 ex_h0)) 0 (OComponent "a") /\
  bound_under (fst (run w0 ex_h0)) 1 (OComponent "ab") /\
  OComponent "a" <> OComponent "ab" /\
  owner_name_ok (OComponent "a") = true /\ owner_name_ok (OComponent "ab") = true /\
  Forall (op_on 1 (OComponent "ab")) [PyWrite 1 "gain" (VScalar (SFloat 8)); PyRead 1 "gain";
                                       Setup 1 ex_cls (Some "components") "ab"] /\
  last_write (fst (run w0 ex_h0)) ex_h "/components/a/gain" = Some (VScalar (SFloat 16)).
Proof.
  split; [reflexivity|]. split; [repeat constructor; simpl; intuition discriminate|].
  split; [apply (forallb_forall (fun d => no_slash (d_attr d)) ex_cls); reflexivity|].
  split.
  { apply (C09_bound_under_stable _ 0 (OComponent "a") (Setup 1 ex_cls (Some "components") "ab"));
      [intros cls p c; discriminate|].
    apply (C09_setup_bound_under _ 0 ex_cls (OComponent "a")). reflexivity. }
  split.
  { apply (C09_setup_bound_under _ 1 ex_cls (OComponent "ab")). reflexivity. }
  split; [discriminate|]. split; [reflexivity|]. split; [reflexivity|].
  split; [repeat constructor; simpl; auto|]. vm_compute. reflexivity.
Qed.

(* the grid is not trivial: it contains supported and unsupported points.
   The counts are stated as binary numbers ([N.of_nat]): the [nat] numeral
   37842 is a term of that many [S]. *)
Definition count_supported : N :=
  N.of_nat (length (filter (fun dh => match spec_decl (fst dh) (snd dh) with
                                      | Some _ => true | None => false end) grid_decls)).
Example C09_nv_grid :
  N.of_nat (length grid_defaults) = 159%N /\ N.of_nat (length grid_hints) = 237%N /\
  N.of_nat (length grid_decls) = 37842%N /\ count_supported = 10490%N /\
  spec_decl (VTuple []) (Some (TGen OTuple [ABase BInt; AEllipsis])) = Some NIntegerArr /\
  spec_decl (VList [SInt 3]) (Some (TGen OTuple [ABase BInt; ABase BStr])) = None.
Proof.
  unfold count_supported, grid_decls. rewrite grid_supported, grid_length.
  rewrite Nat2N.inj_add, !Nat2N.inj_mul, Nat2N.inj_succ. vm_compute. intuition.
Qed.

(* spellings: 13 of them; a module with `from __future__ import annotations`
   declaring  gains: list[float] = tunable([])  and
   flags: ClassVar[tunable[List[bool]]] = tunable(())  is definable, set up under
   component "intake" both are bound with double[] / boolean[] at the documented
   keys; a heterogeneous tuple hint stays rejected when it is a string *)
Definition ex_postponed : list decl :=
  [ mkdecl "flags" (VTuple [])
      (set_name_hint (mksrc None (Some (RStr (AClassVar (ITunable (TGen OList [ABase BBool])))))))
      None true;
    mkdecl "gains" (VList [])
      (set_name_hint (spell (SpAnn QStr false false) (TGen OList [ABase BFloat])))
      (Some "cfg") true ].
Example C09_nv_spelling :
  N.of_nat (length all_spellings) = 13%N /\
  snd (run w0 [Setup 0 ex_postponed (Some "components") "intake";
               NtRead "/components/intake/cfg/gains"; NtRead "/components/intake/flags";
               PyWrite 0 "gains" (VList [SFloat 16]); PyRead 0 "gains"]) =
  [ EvSetup true; EvNt (Some (NDoubleArr, VList [])); EvNt (Some (NBooleanArr, VList []));
    EvWrote; EvVal (VList [SFloat 16]) ] /\
  decl_topic_src (VList []) (spell (SpAnn QStr false false) (TGen OTuple [ABase BInt; ABase BStr]))
    = RaiseTypeError /\
  decl_topic_src (VList []) (mksrc None None) = RaiseValueError.
Proof. vm_compute. intuition. Qed.

(* falsy owners: instance 0 is an empty container (len 0), instance 1 a closed
   gate (__bool__ False); both are set up and read WHILE FALSY, written from
   both sides, the container fills up and empties again *)
Definition ex_xh : list xop :=
  [ XSetTruth 0 (TLen 0); XSetTruth 1 (TBool false);
    XOp (Setup 0 ex_cls (Some "components") "idx"); XOp (Setup 1 ex_cls None "robot");
    XOp (PyRead 0 "gain");
    XOp (NtWrite "/components/idx/gain" NDouble (VScalar (SFloat 48)));
    XOp (PyRead 0 "gain");
    XSetTruth 0 (TLen 1);
    XOp (PyWrite 0 "gain" (VScalar (SFloat 16)));
    XSetTruth 0 (TLen 0);
    XOp (PyRead 0 "gain"); XOp (PyRead 1 "gain");
    XOp (PyWrite 1 "gain" (VScalar (SFloat 160))); XOp (PyRead 1 "gain") ].
Example C09_nv_falsy :
  snd (xrun x0 ex_xh) =
  [ XDone; XDone; XEv (EvSetup true); XEv (EvSetup true);
    XEv (EvVal (VScalar (SFloat 96)));
    XEv EvWrote; XEv (EvVal (VScalar (SFloat 48)));
    XDone; XEv EvWrote; XDone;
    XEv (EvVal (VScalar (SFloat 16))); XEv (EvVal (VScalar (SFloat 96)));
    XEv EvWrote; XEv (EvVal (VScalar (SFloat 160))) ] /\
  falsy_now (fst (xrun x0 (firstn 6 ex_xh))) 0 = true /\
  falsy_now (fst (xrun x0 (firstn 9 ex_xh))) 0 = false /\
  falsy_now (fst (xrun x0 ex_xh)) 0 = true /\ falsy_now (fst (xrun x0 ex_xh)) 1 = true /\
  falsy_now (fst (xrun x0 ex_xh)) 2 = false /\
  truth_value (TLen 0) = false /\ truth_value (TBool false) = false /\
  truth_value (TLen 3) = true /\ truth_value TPlain = true /\
  no_setup (erase (skipn 4 ex_xh)) = true /\
  last_write (x_w (fst (xrun x0 (firstn 4 ex_xh)))) (erase (skipn 4 ex_xh)) "/components/idx/gain"
    = Some (VScalar (SFloat 16)).
Proof. vm_compute. intuition. Qed.

(* a hierarchy with redefinitions: Shooter <- FastShooter(Shooter, Mixin) *)
Definition ex_shooter : classbody :=
  [ MTun (mkdecl "speed" (VScalar (SFloat 64)) None None true);
    MTun (mkdecl "ratio" (VScalar (SFloat 32)) None None true);
    MTun (mkdecl "limit" (VScalar (SInt 5)) None None true);
    MTun (mkdecl "shots" (VScalar (SInt 3)) None (Some "stats") true);
    MTun (mkdecl "mode" (VScalar (SStr "base")) None None true) ].
Definition ex_mixin : classbody :=
  [ MTun (mkdecl "boost" (VScalar (SBool false)) None None true); MPlain "helper" ].
Definition ex_fast : classbody :=
  [ MTun (mkdecl "speed" (VScalar (SFloat 576)) None None true);
    MTun (mkdecl "limit" (VScalar (SInt 7)) None None false);
    MTun (mkdecl "shots" (VScalar (SInt 40)) None (Some "other") true);
    MPlain "mode";
    MTun (mkdecl "boost" (VScalar (SBool true)) None None true) ].
Definition ex_mro : list classbody := [ex_fast; ex_shooter; ex_mixin].
Example C09_nv_hierarchy :
  dir_names ex_mro = ["boost"; "helper"; "limit"; "mode"; "ratio"; "shots"; "speed"] /\
  map d_attr (class_members ex_mro) = ["boost"; "limit"; "ratio"; "shots"; "speed"] /\
  hier_defined ex_mro = true /\
  (forall b m, In b ex_mro -> In m b -> no_slash (member_name m) = true) /\
  class_getattr ex_mro "limit" = Some (MTun (mkdecl "limit" (VScalar (SInt 7)) None None false)) /\
  class_getattr ex_mro "mode" = Some (MPlain "mode") /\
  snd (run w0 [ NtWrite "/components/f/limit" NInteger (VScalar (SInt 2));
                NtWrite "/components/f/speed" NDouble (VScalar (SFloat (-256)));
                setup_class 0 ex_mro (Some "components") "f";
                setup_class 1 [ex_shooter] (Some "components") "b";
                PyRead 0 "speed"; PyRead 0 "limit"; PyRead 0 "ratio"; PyRead 0 "boost";
                NtRead "/components/f/other/shots"; NtRead "/components/f/stats/shots";
                NtRead "/components/f/mode"; PyRead 1 "speed"; PyRead 1 "limit";
                NtRead "/components/b/mode" ]) =
  [ EvWrote; EvWrote; EvSetup true; EvSetup true;
    EvVal (VScalar (SFloat 576)); EvVal (VScalar (SInt 2)); EvVal (VScalar (SFloat 32));
    EvVal (VScalar (SBool true));
    EvNt (Some (NInteger, VScalar (SInt 40))); EvNt None; EvNt None;
    EvVal (VScalar (SFloat 64)); EvVal (VScalar (SInt 5));
    EvNt (Some (NString, VScalar (SStr "base"))) ].
Proof.
  repeat split; try (vm_compute; reflexivity).
  intros b m Hb. apply (forallb_forall (fun m => no_slash (member_name m)) b).
  revert b Hb. apply forallb_forall. vm_compute. reflexivity.
Qed.

(* shared presets, as a user writes them:
     default_kp = tunable(0.5); default_limit = tunable(40, subtable="limits")
     default_label = tunable("idle", writeDefault=False)
     class Intake:  intake_kp = default_kp;  intake_current = default_limit;  mode = default_label; own = tunable(1.0)
     class Shooter: shooter_kp = default_kp; shooter_current = default_limit; mode = default_label; own = tunable(2.0)
                    kf: float = tunable(0)
     class Robot:   drive_kp = default_kp;   breaker = default_limit
   every owner gets the topic under ITS name for the object; `kf` is a double
   topic with an int default literal: 0.75 and 2 assigned read back 0.75, 2.0 *)
Definition ex_prog : program :=
  mkprog
    [ mktobj (VScalar (SFloat 32)) None None true;
      mktobj (VScalar (SInt 40)) None (Some "limits") true;
      mktobj (VScalar (SStr "idle")) None None false;
      mktobj (VScalar (SFloat 64)) None None true;
      mktobj (VScalar (SFloat 128)) None None true;
      mktobj (VScalar (SInt 0)) None None true ]
    [ [OTun "intake_kp" 0 None; OTun "intake_current" 1 None; OTun "mode" 2 None; OTun "own" 3 None];
      [OTun "shooter_kp" 0 None; OTun "shooter_current" 1 None; OTun "mode" 2 None; OTun "own" 4 None;
       OTun "kf" 5 (Some (RObj (APlain (IType (TBase BFloat)))))];
      [OTun "drive_kp" 0 None; OTun "breaker" 1 None] ].
Example C09_nv_shared :
  prog_in_model ex_prog [[0]; [1]; [2]] = true /\
  prog_stmts ex_prog [1] = Some [nth 1 (p_stmts ex_prog) []] /\
  omro_getattr [nth 1 (p_stmts ex_prog) []] "shooter_kp" = Some (OTun "shooter_kp" 0 None) /\
  omro_getattr [nth 0 (p_stmts ex_prog) []] "intake_kp" = Some (OTun "intake_kp" 0 None) /\
  obj_hint ex_prog 5 = Some (TBase BFloat) /\ obj_hint ex_prog 0 = None /\
  snd (run w0 [ NtWrite "/components/shooter/mode" NString (VScalar (SStr "spin"));
                Setup 0 (prog_class_list ex_prog [0]) (Some "components") "intake";
                Setup 1 (prog_class_list ex_prog [1]) (Some "components") "shooter";
                Setup 2 (prog_class_list ex_prog [2]) None "robot";
                NtRead "/components/intake/intake_kp"; NtRead "/components/shooter/shooter_kp";
                NtRead "/robot/drive_kp"; NtRead "/components/intake/shooter_kp";
                NtRead "/components/intake/drive_kp"; NtRead "/components/intake/limits/intake_current";
                NtRead "/robot/limits/breaker";
                PyWrite 0 "intake_kp" (VScalar (SFloat 48)); PyRead 0 "intake_kp";
                PyRead 1 "shooter_kp"; PyRead 2 "drive_kp"; PyRead 0 "mode"; PyRead 1 "mode";
                NtRead "/components/shooter/kf";
                PyWrite 1 "kf" (VScalar (SFloat 48)); PyRead 1 "kf";
                PyWrite 1 "kf" (VScalar (SInt 2)); PyRead 1 "kf"; NtRead "/components/shooter/kf" ]) =
  [ EvWrote; EvSetup true; EvSetup true; EvSetup true;
    EvNt (Some (NDouble, VScalar (SFloat 32))); EvNt (Some (NDouble, VScalar (SFloat 32)));
    EvNt (Some (NDouble, VScalar (SFloat 32))); EvNt None; EvNt None;
    EvNt (Some (NInteger, VScalar (SInt 40))); EvNt (Some (NInteger, VScalar (SInt 40)));
    EvWrote; EvVal (VScalar (SFloat 48));
    EvVal (VScalar (SFloat 32)); EvVal (VScalar (SFloat 32));
    EvVal (VScalar (SStr "idle")); EvVal (VScalar (SStr "spin"));
    EvNt (Some (NDouble, VScalar (SFloat 0)));
    EvWrote; EvVal (VScalar (SFloat 48));
    EvWrote; EvVal (VScalar (SFloat 128)); EvNt (Some (NDouble, VScalar (SFloat 128))) ] /\
  fits NDouble (VScalar (SFloat 48)) = true /\ fits NDouble (VScalar (SInt 2)) = false /\
  fits NDoubleArr (VTuple [SFloat 1; SFloat 2]) = true /\ fits NInteger (VScalar (SFloat 64)) = false.
Proof. vm_compute. intuition. Qed.

(* the model boundary: one object under two public names of one class (also
   through a base class) is outside the model; a private alias is not bound at
   all and does no harm *)
Example C09_nv_alias_outside_model :
  let o := mktobj (VScalar (SInt 1)) None None true in
  prog_class (mkprog [o] [[OTun "p" 0 None; OTun "q" 0 None]]) [0] = None /\
  prog_class (mkprog [o] [[OTun "a1" 0 None]; [OTun "b1" 0 None]]) [1; 0] = None /\
  (exists cls, prog_class (mkprog [o] [[OTun "p" 0 None; OTun "_q" 0 None]]) [0] = Some cls) /\
  (exists cls, prog_class (mkprog [o] [[OTun "a1" 0 None]; [OTun "b1" 0 None]]) [1] = Some cls).
Proof. vm_compute. repeat split; eexists; reflexivity. Qed.

(* DISCREPANCY (the model follows the library): a shared object has ONE
   _topic_type slot, so when the classes that bind it annotate it differently
   the class statement that ran LAST decides for all of them:
     shared = tunable(0);  class A: x: float = shared;  class B: y = shared
   publishes A.x as an int topic although A writes the hint float; with the
   class statements in the other order it is a double topic *)
Example C09_shared_annotation_last_class_wins :
  let o := mktobj (VScalar (SInt 0)) None None true in
  let ax := OTun "x" 0 (Some (RObj (APlain (IType (TBase BFloat))))) in
  let pr1 := mkprog [o] [[ax]; [OTun "y" 0 None]] in
  let pr2 := mkprog [o] [[OTun "y" 0 None]; [ax]] in
  obj_hint pr1 0 = None /\ obj_hint pr2 0 = Some (TBase BFloat) /\
  snd (run w0 [Setup 0 (prog_class_list pr1 [0]) (Some "components") "a"; NtRead "/components/a/x"]) =
    [EvSetup true; EvNt (Some (NInteger, VScalar (SInt 0)))] /\
  snd (run w0 [Setup 0 (prog_class_list pr2 [1]) (Some "components") "a"; NtRead "/components/a/x"]) =
    [EvSetup true; EvNt (Some (NDouble, VScalar (SFloat 0)))].
Proof. vm_compute. intuition. Qed.

(* the clock: a component is set up and reads `speed` under a PAUSED clock
   (t = 1000), a client publishes 7.25 -- same timestamp --, the read gives 7.25;
   the clock is stepped, the component assigns 4.0, a client re-publishes with
   the SAME timestamp as that value (SSame), then with "now": each time the
   read gives the latest; every timestamp is as ntcore assigns it (a duplicate
   keeps the old one, setDefault leaves 0); a stale update (SOlder, and SAt 900)
   is dropped and the read keeps the value; the hypotheses of the theorems
   hold for the timely part, and fail for the stale update *)
Definition ex_speed : decl := mkdecl "speed" (VScalar (SFloat 64)) None None true.
Definition ex_keep : decl := mkdecl "keep" (VScalar (SInt 3)) None None false.
Definition ex_gh : list gop :=
  [ GSetupOf 0 0 (Some "components") "shooter";
    GX (XOp (PyRead 0 "speed")); GNtStamp "/components/shooter/speed"; GNtStamp "/components/shooter/keep";
    GX (XOp (NtWrite "/components/shooter/speed" NDouble (VScalar (SFloat 464))));
    GX (XOp (PyRead 0 "speed")); GNtStamp "/components/shooter/speed";
    GTick 20000;
    GX (XOp (PyWrite 0 "speed" (VScalar (SFloat 256)))); GX (XOp (PyRead 0 "speed"));
    GNtWriteAt "/components/shooter/speed" NDouble (VScalar (SFloat 320)) SSame;
    GX (XOp (PyRead 0 "speed")); GNtStamp "/components/shooter/speed";
    GTick 0;
    GNtWriteAt "/components/shooter/speed" NDouble (VScalar (SFloat 320)) SNow;   (* a duplicate *)
    GNtStamp "/components/shooter/speed";
    GTick 5;
    GNtWriteAt "/components/shooter/speed" NDouble (VScalar (SFloat 384)) SNow;
    GX (XOp (PyRead 0 "speed")); GNtStamp "/components/shooter/speed" ].
Definition ex_stale : list gop :=
  [ GNtWriteAt "/components/shooter/speed" NDouble (VScalar (SFloat 0)) SOlder;
    GX (XOp (PyRead 0 "speed"));
    GNtWriteAt "/components/shooter/speed" NDouble (VScalar (SFloat 0)) (SAt 900);
    GX (XOp (PyRead 0 "speed")); GNtStamp "/components/shooter/speed" ].
Example C09_nv_time :
  let g := g0 1000 [[[MTun ex_speed; MTun ex_keep]]] in
  snd (grun g ex_gh) =
  [ (GEv (XEv (EvSetup true)), true);
    (GEv (XEv (EvVal (VScalar (SFloat 64)))), true); (GStamp 1000, true); (GStamp 0, true);
    (GEv (XEv EvWrote), true);
    (GEv (XEv (EvVal (VScalar (SFloat 464)))), true); (GStamp 1000, true);
    (GDone, true);
    (GEv (XEv EvWrote), true); (GEv (XEv (EvVal (VScalar (SFloat 256)))), true);
    (GEv (XEv EvWrote), true);
    (GEv (XEv (EvVal (VScalar (SFloat 320)))), true); (GStamp 21000, true);
    (GDone, true);
    (GEv (XEv EvWrote), true); (GStamp 21000, true);
    (GDone, true);
    (GEv (XEv EvWrote), true);
    (GEv (XEv (EvVal (VScalar (SFloat 384)))), true); (GStamp 21005, true) ] /\
  forallb gop_timely ex_gh = true /\ all_accepted (snd (grun g ex_gh)) = true /\
  (forall k, (stamp_get (g_stamps g) k <= g_now g)%Z) /\
  gerase (g_classes g) ex_gh =
  [ XOp (setup_class 0 [[MTun ex_speed; MTun ex_keep]] (Some "components") "shooter");
    XOp (PyRead 0 "speed");
    XOp (NtWrite "/components/shooter/speed" NDouble (VScalar (SFloat 464))); XOp (PyRead 0 "speed");
    XOp (PyWrite 0 "speed" (VScalar (SFloat 256))); XOp (PyRead 0 "speed");
    XOp (NtWrite "/components/shooter/speed" NDouble (VScalar (SFloat 320))); XOp (PyRead 0 "speed");
    XOp (NtWrite "/components/shooter/speed" NDouble (VScalar (SFloat 320)));
    XOp (NtWrite "/components/shooter/speed" NDouble (VScalar (SFloat 384))); XOp (PyRead 0 "speed") ] /\
  no_setup (erase (gerase (g_classes g) (tl ex_gh))) = true /\
  (* the stale updates: dropped, flagged, the read keeps 6.0 and the timestamp stays *)
  snd (grun (fst (grun g ex_gh)) ex_stale) =
  [ (GEv (XEv EvWrote), false); (GEv (XEv (EvVal (VScalar (SFloat 384)))), true);
    (GEv (XEv EvWrote), false); (GEv (XEv (EvVal (VScalar (SFloat 384)))), true); (GStamp 21005, true) ] /\
  forallb gop_timely ex_stale = false /\
  (* the clock jumps BACK (HAL initialised after NT was used): a write "now" is dropped too *)
  snd (grun (fst (grun g ex_gh))
            [GTick (-30000); GX (XOp (PyWrite 0 "speed" (VScalar (SFloat 0)))); GX (XOp (PyRead 0 "speed"))]) =
  [ (GDone, true); (GEv (XEv EvWrote), false); (GEv (XEv (EvVal (VScalar (SFloat 384)))), true) ].
Proof.
  vm_compute. repeat split; try reflexivity. intros k. discriminate.
Qed.

(* classes that change: a StateMachine-like class (own tunable `power`, the
   base's `current_state`); constructing an instance assigns state_names anew.
   left is constructed and set up, right is constructed (the class gets a NEW
   state_names object, here with another default to tell them apart, and a
   tunable `extra` is added, `power` is replaced by one with default 0.75) and
   set up: right has all of them at ITS keys with the NEW defaults, left's
   topics are untouched *)
Definition ex_names (l : list string) : decl :=
  mkdecl "state_names" (VList (map SStr l)) None (Some "state") true.
Definition ex_sm : list classbody :=
  [ [MTun (mkdecl "power" (VScalar (SFloat 32)) None None true)];
    [MTun (mkdecl "current_state" (VScalar (SStr "")) None (Some "state") true)] ].
Definition ex_ch : list gop :=
  [ GClassAssign 0 (MTun (ex_names ["idle"; "eject"]));
    GSetupOf 0 0 (Some "components") "left";
    GX (XOp (PyRead 0 "state_names"));
    GClassAssign 0 (MTun (ex_names ["idle"; "eject"; "jam"]));
    GClassAssign 0 (MTun (mkdecl "extra" (VScalar (SInt 5)) None None true));
    GClassAssign 0 (MTun (mkdecl "power" (VScalar (SFloat 48)) None None true));
    GSetupOf 1 0 (Some "components") "right";
    GX (XOp (PyRead 1 "state_names")); GX (XOp (PyRead 1 "extra")); GX (XOp (PyRead 1 "power"));
    GX (XOp (PyRead 1 "current_state"));
    GX (XOp (NtRead "/components/right/state/state_names"));
    GX (XOp (NtRead "/components/left/state/state_names"));
    GX (XOp (NtRead "/components/left/power")); GX (XOp (NtRead "/components/left/extra"));
    GSetupOf 2 7 None "nobody"; GClassAssign 7 (MPlain "x") ].
Example C09_nv_class_change :
  let g := g0 5 [ex_sm] in
  snd (grun g ex_ch) =
  [ (GDone, true); (GEv (XEv (EvSetup true)), true);
    (GEv (XEv (EvVal (VList [SStr "idle"; SStr "eject"]))), true);
    (GDone, true); (GDone, true); (GDone, true); (GEv (XEv (EvSetup true)), true);
    (GEv (XEv (EvVal (VList [SStr "idle"; SStr "eject"; SStr "jam"]))), true);
    (GEv (XEv (EvVal (VScalar (SInt 5)))), true); (GEv (XEv (EvVal (VScalar (SFloat 48)))), true);
    (GEv (XEv (EvVal (VScalar (SStr "")))), true);
    (GEv (XEv (EvNt (Some (NStringArr, VList [SStr "idle"; SStr "eject"; SStr "jam"])))), true);
    (GEv (XEv (EvNt (Some (NStringArr, VList [SStr "idle"; SStr "eject"])))), true);
    (GEv (XEv (EvNt (Some (NDouble, VScalar (SFloat 32))))), true); (GEv (XEv (EvNt None)), true);
    (GNoClass, true); (GNoClass, true) ] /\
  map member_name (nth 0 (nth 0 (g_classes (fst (grun g ex_ch))) []) []) =
    ["power"; "extra"; "state_names"] /\
  class_getattr (mro_assign ex_sm (MTun (ex_names ["idle"]))) "state_names" = Some (MTun (ex_names ["idle"])) /\
  class_getattr (mro_assign ex_sm (MPlain "current_state")) "current_state" = Some (MPlain "current_state") /\
  class_members (mro_assign ex_sm (MPlain "current_state")) =
    [mkdecl "power" (VScalar (SFloat 32)) None None true] /\
  (forall b x, In b (mro_assign ex_sm (MTun (ex_names ["idle"; "eject"]))) -> In x b ->
               no_slash (member_name x) = true) /\
  forallb gop_timely ex_ch = true /\
  length (gerase (g_classes g) ex_ch) = 11%nat.
Proof.
  vm_compute. repeat split; try reflexivity.
  intros b x [<-|[<-|[]]] Hx; simpl in Hx; intuition (subst; reflexivity).
Qed.

(* subtables with structure:  class Arm: gain = tunable(1.0, subtable="/pid");
   top = tunable(10, subtable="limits/"); up = tunable(2, subtable="..")  on two
   components and an autonomous mode (its name has a slash): every owner has
   its OWN topics, at the concatenated keys; left.gain = 2.5 reaches only left;
   nothing lives at the keys a path-join would produce *)
Definition ex_arm : list decl :=
  [ mkdecl "gain" (VScalar (SFloat 64)) None (Some "/pid") true;
    mkdecl "top" (VScalar (SInt 10)) None (Some "limits/") true;
    mkdecl "up" (VScalar (SInt 2)) None (Some "..") true ].
Example C09_nv_structured_subtable :
  key_of (Some "components") "left" (Some "/pid") "gain" = "/components/left//pid/gain" /\
  key_of (Some "components") "left" (Some "limits/") "top" = "/components/left/limits//top" /\
  owner_key (OAutonomous "Two/Steps") (Some "..") "up" = "/autonomous/Two/Steps/../up" /\
  owner_key ORobot (Some "//") "x" = "/robot////x" /\
  snd (run w0 [ Setup 0 ex_arm (Some "components") "left"; Setup 1 ex_arm (Some "components") "right";
                Setup 2 ex_arm (Some "autonomous") "Two/Steps";
                PyWrite 0 "gain" (VScalar (SFloat 160)); PyRead 0 "gain"; PyRead 1 "gain"; PyRead 2 "gain";
                NtRead "/components/left//pid/gain"; NtRead "/components/right//pid/gain";
                NtRead "/autonomous/Two/Steps//pid/gain"; NtRead "/pid/gain"; NtRead "/components/left/pid/gain";
                NtRead "/components/right/limits//top"; NtRead "/components/right/limits/top";
                NtRead "/components/left/../up"; NtRead "/components/up" ]) =
  [ EvSetup true; EvSetup true; EvSetup true; EvWrote;
    EvVal (VScalar (SFloat 160)); EvVal (VScalar (SFloat 64)); EvVal (VScalar (SFloat 64));
    EvNt (Some (NDouble, VScalar (SFloat 160))); EvNt (Some (NDouble, VScalar (SFloat 64)));
    EvNt (Some (NDouble, VScalar (SFloat 64))); EvNt None; EvNt None;
    EvNt (Some (NInteger, VScalar (SInt 10))); EvNt None;
    EvNt (Some (NInteger, VScalar (SInt 2))); EvNt None ] /\
  "/pid" <> "" /\ "left" <> "right".
Proof. vm_compute. repeat split; try reflexivity; discriminate. Qed.

(* the loop: robotInit binds shooter.level (0); pass 1: shooter.execute()
   assigns 1 and reads 1; pass 2 starts, 5 ms later the dashboard sets 7 from
   the intake's execute(), the shooter's execute() reads 7, assigns 9, reads 9,
   its @feedback getter reads 9; between the passes the dashboard sets 11, the
   component assigns 12 -- every read gives the latest value, every write is
   accepted; the hypotheses of C09_read_latest_inside_a_pass hold for the read
   after `level = 9` *)
Definition ex_level : decl := mkdecl "level" (VScalar (SInt 0)) None None true.
Definition ex_lvl (z : Z) : value := VScalar (SInt z).
Definition ex_lkey : string := "/components/shooter/level".
Definition ex_passes : list (list (list gop)) :=
  [ [ [GX (XOp (PyWrite 0 "level" (ex_lvl 1))); GX (XOp (PyRead 0 "level"))] ];
    [ [GTick 5000; GX (XOp (NtWrite ex_lkey NInteger (ex_lvl 7)))];
      [GX (XOp (PyRead 0 "level")); GX (XOp (PyWrite 0 "level" (ex_lvl 9))); GX (XOp (PyRead 0 "level"))];
      [GX (XOp (PyRead 0 "level"))] ];
    [ [GTick 20000; GX (XOp (NtWrite ex_lkey NInteger (ex_lvl 11))); GX (XOp (PyRead 0 "level"));
       GX (XOp (PyWrite 0 "level" (ex_lvl 12))); GX (XOp (PyRead 0 "level")); GX (XOp (NtRead ex_lkey))] ] ].
Example C09_nv_loop :
  let g := fst (fst (gstep (g0 1000 [[[MTun ex_level]]]) (GSetupOf 0 0 (Some "components") "shooter"))) in
  snd (grun g (loop_history ex_passes)) =
  [ (GEv (XEv EvWrote), true); (GEv (XEv (EvVal (ex_lvl 1))), true);
    (GDone, true); (GEv (XEv EvWrote), true);
    (GEv (XEv (EvVal (ex_lvl 7))), true); (GEv (XEv EvWrote), true); (GEv (XEv (EvVal (ex_lvl 9))), true);
    (GEv (XEv (EvVal (ex_lvl 9))), true);
    (GDone, true); (GEv (XEv EvWrote), true); (GEv (XEv (EvVal (ex_lvl 11))), true);
    (GEv (XEv EvWrote), true); (GEv (XEv (EvVal (ex_lvl 12))), true);
    (GEv (XEv (EvNt (Some (NInteger, ex_lvl 12)))), true) ] /\
  forallb gop_timely (loop_history ex_passes) = true /\
  (forall k, (stamp_get (g_stamps g) k <= g_now g)%Z) /\
  inst_get (w_inst (x_w (g_x g))) 0 = Some [("level", (ex_lkey, NInteger, ex_lvl 0))] /\
  (* the read after `level = 9`: before = pass 1, locs1 = the intake's execute(), ops1 = read; assign *)
  loop_history ex_passes =
    loop_history ([nth 0 ex_passes []] ++
                  [[nth 0 (nth 1 ex_passes []) []] ++
                   ([GX (XOp (PyRead 0 "level")); GX (XOp (PyWrite 0 "level" (ex_lvl 9)))] ++
                    GX (XOp (PyRead 0 "level")) :: []) :: [nth 2 (nth 1 ex_passes []) []]] ++
                  [nth 2 ex_passes []])%list /\
  last_write (x_w (g_x g))
    (erase (gerase (g_classes g)
       (loop_history [nth 0 ex_passes []] ++ concat [nth 0 (nth 1 ex_passes []) []] ++
        [GX (XOp (PyRead 0 "level")); GX (XOp (PyWrite 0 "level" (ex_lvl 9)))])%list)) ex_lkey = Some (ex_lvl 9) /\
  (* a write stamped with the time the pass STARTED, after the dashboard's later update, would be dropped *)
  snd (grun g [GTick 5000; GX (XOp (NtWrite ex_lkey NInteger (ex_lvl 7)));
               GNtWriteAt ex_lkey NInteger (ex_lvl 9) (SAt 1000); GX (XOp (PyRead 0 "level"))]) =
  [ (GDone, true); (GEv (XEv EvWrote), true); (GEv (XEv EvWrote), false); (GEv (XEv (EvVal (ex_lvl 7))), true) ].
Proof.
  cbv zeta. repeat split; try (vm_compute; reflexivity).
  (* the setup is a timely operation on a world with no timestamps yet *)
  apply (proj2 (gstep_ok_all (g0 1000 _) (GSetupOf 0 0 (Some "components") "shooter")));
    [intros k; apply Z.leb_le|]; reflexivity.
Qed.

Print Assumptions C09_key.
Print Assumptions C09_setup_binds_key.
Print Assumptions C09_attr_write_reaches_topic.
Print Assumptions C09_attr_read_sees_topic.
Print Assumptions C09_read_latest.
Print Assumptions C09_read_latest_event.
Print Assumptions C09_read_latest_after_any_history.
Print Assumptions C09_nt_read_latest.
Print Assumptions C09_keys_disjoint.
Print Assumptions C09_setup_bound_under.
Print Assumptions C09_bound_under_stable.
Print Assumptions C09_instances_independent.
Print Assumptions C09_write_default.
Print Assumptions C09_setup_untouched.
Print Assumptions C09_topic_type.
Print Assumptions C09_topic_type_grid.
Print Assumptions C09_topic_scalar.
Print Assumptions C09_topic_array.
Print Assumptions C09_empty_untyped_unsupported.
Print Assumptions C09_topic_hint.
Print Assumptions C09_tuple_hint.
Print Assumptions C09_hetero_tuple_unsupported.
Print Assumptions C09_hint_spelling.
Print Assumptions C09_hint_resolution.
Print Assumptions C09_postponed_annotation.
Print Assumptions C09_topic_type_spelled.
Print Assumptions C09_hinted_empty_sequence.
Print Assumptions C09_setup_binds_spelled.
Print Assumptions C09_read_ignores_truthiness.
Print Assumptions C09_read_latest_falsy_owner.
Print Assumptions C09_read_latest_event_falsy_owner.
Print Assumptions C09_truthiness_irrelevant.
Print Assumptions C09_truthiness_unobservable.
Print Assumptions C09_read_never_returns_descriptor.
Print Assumptions C09_write_falsy_owner.
Print Assumptions C09_set_truth_changes_nothing_else.
Print Assumptions C09_class_members.
Print Assumptions C09_redefinition_shadows.
Print Assumptions C09_plain_member_shadows.
Print Assumptions C09_setup_hierarchy.
Print Assumptions C09_setup_hierarchy_read.
Print Assumptions C09_setup_hierarchy_untouched.
Print Assumptions C09_hierarchy_setup_succeeds.
Print Assumptions C09_typed_value_unchanged.
Print Assumptions C09_int_on_double_topic.
Print Assumptions C09_write_reads_back.
Print Assumptions C09_write_of_topic_type_reads_back.
Print Assumptions C09_setup_then_write_reads_back.
Print Assumptions C09_shared_object_key.
Print Assumptions C09_shared_object_hint.
Print Assumptions C09_shared_object_hint_subscript.
Print Assumptions C09_shared_object_topic_type.
Print Assumptions C09_time_irrelevant.
Print Assumptions C09_paused_clock_drops_nothing.
Print Assumptions C09_read_latest_any_time.
Print Assumptions C09_read_latest_event_any_time.
Print Assumptions C09_stale_update_dropped.
Print Assumptions C09_class_assign_lookup.
Print Assumptions C09_class_assign_changes_nothing_else.
Print Assumptions C09_setup_binds_current_class.
Print Assumptions C09_setup_after_class_assign.
Print Assumptions C09_key_verbatim.
Print Assumptions C09_key_injective_in_name.
Print Assumptions C09_other_name_other_topic.
Print Assumptions C09_owner_key_injective.
Print Assumptions C09_read_latest_inside_a_pass.
Print Assumptions C09_loop_structure_irrelevant.
