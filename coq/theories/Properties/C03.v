(* C03 -- State functions get correct tm, state_tm, initial_call in any parameter order.

   The call adapter `lambda self, tm, state_tm, initial_call: f(<declared>)` is
   modelled by [adapter]; which signatures are accepted is C12's business
   (Defs.validate_sig).  initial_call is characterised against a reference that
   only looks at the observable trace: [pending] marks a state as "entered and
   not called since" at every next_state() invocation (EvEnter: by engage(), by a
   state function, by expiry of the predecessor, by the restart of the cycle) and
   at every fall-back to the default state (EvFallback); a call must pass
   initial_call = pending and clears it.  Statements only. *)
From Coq Require Import ZArith List Bool.
From RecordUpdate Require Import RecordSet.
Import RecordSetNotations.
From RV Require Import SM.Model SM.Basics SM.Engage SM.Invariants SM.Stop SM.Timing SM.Args SM.Check SM.Examples.
Import ListNotations.
Open Scope Z_scope.

(* whatever subset and order of the optional parameters is declared, the i-th
   actual argument is the value of the i-th declared parameter *)
Theorem C03_adapter : forall ps tm stm init i p,
  nth_error ps i = Some p ->
  nth_error (adapter ps tm stm init) i = Some (arg_value tm stm init p).
Proof. exact adapter_nth. Qed.

Theorem C03_adapter_arity : forall ps tm stm init, length (adapter ps tm stm init) = length ps.
Proof. exact adapter_length. Qed.

Section C03.
Variable sh : shape.
Variable body : nat -> name -> Z -> Z -> bool -> list action.

(* initial_call is True on exactly the first call after each entry and False on
   every consecutive call: for EVERY history and every user code, with or without
   the usage contract; [agree r m] ties the reference to the machine so the
   statement composes over histories *)
Theorem C03_initial_call_iff_first_after_entry : forall fuel h r m, agree r m ->
  exists r', accepts r (concat (snd (run sh body fuel m h))) r' /\ agree r' (fst (run sh body fuel m h)).
Proof. exact (fun fuel h r m => run_tracks sh body fuel h m r). Qed.

Theorem C03_initially_every_state_is_pending : forall durs, agree (fun _ => true) (init_sm durs).
Proof. exact agree_init. Qed.

(* tm restarts at zero on the first iteration after engage() on a stopped machine
   (stated again as C04_restart_fresh) *)
Theorem C03_tm_starts_at_zero : forall nested m now init force,
  engaged m = false -> (cur m = None \/ at_default sh m = true) -> clk m <= now ->
  let tgt := match init with Some s => s | None => sh_first sh end in
  is_state sh tgt = true -> is_default sh tgt = false ->
  let m1 := fst (engage sh m init force) in
  snd (engage sh m init force) = [EvEnter tgt] /\
  exists m2 e,
    exec_step sh body nested m1 now =
    (m2, EvBk tgt (now + 0) (now + (0 + duration_of sh m tgt)) :: EvCall tgt 0 0 true true :: e).
Proof. exact (restart_fresh sh body). Qed.

(* inside an engagement tm is the clock reading minus the machine's origin, and
   state_tm is tm minus the state's entry instant, in the iteration that calls a
   state that stays (the statement of one iteration; that origin and entry instant
   are the same at the next call is the machine equation of C02_holds_until_expiry) *)
Theorem C03_times_track_the_clock : forall nested m now s,
  engaged m = true -> cur m = Some s -> ran (sdat m s) = true ->
  now - start m <= st_exp (sdat m s) -> requested_or_must sh m s -> clk m <= now ->
  exec_step sh body nested m now =
  finish_call sh body nested (m <| clk := now |>) s (now - start m) (now - start m - st_start (sdat m s)) false [].
Proof. exact (holds_until_expiry_eq sh body). Qed.

(* both are non-negative, at every call of every history inside the contract
   (the statement of C02_state_tm_nonneg) *)
Theorem C03_times_nonneg : forall fuel h m, wf_shape sh -> Inv sh m ->
  ok (trace_of (snd (run sh body fuel m h))) ->
  forall s tm stm i e, In (EvCall s tm stm i e) (trace_of (snd (run sh body fuel m h))) ->
    0 <= stm /\ (e = true -> 0 <= tm).
Proof. exact (fun fuel h m Hwf HI Hok => calls_in _ _ (proj2 (run_inv sh body Hwf fuel h m HI Hok))). Qed.
End C03.

(* Non-vacuity: the 16 parameter orders; the reference accepts the example trace
   (which re-enters states by engage, next_state, next_state_now, expiry, fallback) *)
Example C03_nv_orders : length all_param_orders = 16%nat /\ NoDup all_param_orders
  /\ adapter [PInitial; PTm] 7 3 true = [VB true; VZ 7].
Proof.
  split; [reflexivity|]. split; [|reflexivity].
  repeat (constructor; [cbn; intuition discriminate|]). constructor.
Qed.
Example C03_nv_reference_accepts :
  exists r', accepts (fun _ => true) ex_trace r' /\ map r' [0; 1; 2; 3]%nat = [false; false; false; false].
Proof. eexists. split; [vm_compute; reflexivity|]. reflexivity. Qed.
Example C03_nv_reference_rejects_wrong_flag :
  ref_run (fun _ => true) [EvEnter 0%nat; EvCall 0%nat 0 0 true true; EvCall 0%nat 1 1 true true] = None.
Proof. reflexivity. Qed.

Print Assumptions C03_adapter.
Print Assumptions C03_adapter_arity.
Print Assumptions C03_initial_call_iff_first_after_entry.
Print Assumptions C03_initially_every_state_is_pending.
Print Assumptions C03_tm_starts_at_zero.
Print Assumptions C03_times_track_the_clock.
Print Assumptions C03_times_nonneg.
