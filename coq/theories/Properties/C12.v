(* C12 -- malformed StateMachine definitions are rejected when defined or
   instantiated; state_names / state_descriptions list exactly the states.
   The theorems are statements only, each closed by [exact] of a lemma of
   Defs.Proofs (two by a one-line term over such lemmas); the examples at the
   end (non-vacuity) are closed by evaluation.

   Vocabulary (Defs/Spec.v, proof-free):
     [mro]                the class dicts of a class in MRO order, most derived
                          first (any number of classes, any contents);
     [effective mro n]    Python attribute lookup: the binding of n in the
                          first class of the MRO that binds n (a redefinition
                          overrides what is inherited, whatever it is);
     [first_in mro n]     the effective member n is a state with first=True;
     [default_in mro n]   the effective member n is a default state;
     [bases_first mro]    all attribute names, base classes first, each class
                          in definition order;
     [sig_faulty ps]      first parameter is not self, or some parameter is
                          *args / **kwargs / keyword-only, or some parameter
                          name is not one of self, tm, state_tm, initial_call.
     [marked_first k], [marked_default k]  what the SOURCE says: the first=
                          option of the decorator expression k as written,
                          resp. "is default_state" -- for every spelling:
                          @state(first=True) (factory), k = state(f, first=True)
                          (function and options in one call; bare @state),
                          timed_state, default_state.
   [reserved] is the list of names n with hasattr(StateMachine, n) or
   n in StateMachine.__annotations__; it is regenerated from the imported class
   on every run and the theorems are instantiated with it (work/C12/Gen_C12.v). *)
From Coq Require Import List String.
From RV Require Import Defs.Model Defs.Spec Defs.Proofs.
Import ListNotations.
Open Scope string_scope.
Open Scope list_scope.

(* for every class hierarchy: the instance can be created iff exactly one
   effective state is first and at most one is a default state *)
Theorem C12_build_ok_iff : forall mro,
  (exists r, build_states mro = Ok r) <->
  (exists n, first_in mro n /\ forall n', first_in mro n' -> n' = n) /\
  (forall n1 n2, default_in mro n1 -> default_in mro n2 -> n1 = n2).
Proof. exact build_ok_iff. Qed.

(* ... and then the result names that first state ([r_first], self.__first)
   and that default state, if there is one ([r_default], self.__default_state) *)
Theorem C12_build_ok_sound : forall mro r, build_states mro = Ok r ->
  first_in mro (r_first r) /\ (forall n, first_in mro n -> n = r_first r) /\
  (forall n1 n2, default_in mro n1 -> default_in mro n2 -> n1 = n2) /\
  match r_default r with
  | Some d => default_in mro d
  | None => forall n, ~ default_in mro n
  end.
Proof. exact build_ok_sound. Qed.

(* otherwise one of the three errors is raised, and each says the truth *)
Theorem C12_build_err_sound : forall mro e, build_states mro = Err e ->
  match e with
  | NoFirst => forall n, ~ first_in mro n
  | MultipleFirst => exists n1 n2, n1 <> n2 /\ first_in mro n1 /\ first_in mro n2
  | MultipleDefault => exists n1 n2, n1 <> n2 /\ default_in mro n1 /\ default_in mro n2
  end.
Proof. exact build_err_sound. Qed.

(* the member dict the loop runs over IS attribute lookup along the MRO *)
Theorem C12_members_are_effective : forall mro k m,
  In (k, m) (class_members mro) <-> effective mro k = Some m.
Proof. exact class_members_In. Qed.

Theorem C12_sig_reject_iff : forall ps,
  (exists e, validate_sig ps = Err e) <->
  first_not_self ps \/ Exists bad_kind ps \/ Exists bad_name ps.
Proof. exact sig_reject_iff. Qed.

(* an accepted signature: the adapter passes the arguments in declaration
   order, every parameter receiving the value of its own name *)
Theorem C12_sig_accept_order : forall ps args, validate_sig ps = Ok args ->
  args = map p_name ps /\
  forall V (e : callenv V),
    adapter args e = map (fun p => env_get e (p_name p)) ps /\ ~ In None (adapter args e).
Proof. exact (fun ps args H => conj (sig_ok_args ps args H) (adapter_order ps args H)). Qed.

Theorem C12_sig_err_sound : forall ps e, validate_sig ps = Err e ->
  match e with
  | ErrFirstNotSelf => first_not_self ps
  | ErrVarPos => Exists (fun p => p_kind p = VarPos) ps
  | ErrVarKw => Exists (fun p => p_kind p = VarKw) ps
  | ErrKwOnly => Exists (fun p => p_kind p = KwOnly) ps
  | ErrInvalidNames l =>
      l = filter (fun n => negb (mem n allowed_args)) (map p_name ps) /\ l <> [] /\
      ~ first_not_self ps /\ ~ Exists bad_kind ps
  end.
Proof. exact sig_err_sound. Qed.

(* over an arbitrary reserved list; whatever else is wrong with the
   definition, a colliding name gives InvalidStateName *)
Theorem C12_name_reject_iff : forall reserved d,
  construct reserved d = Err EInvalidStateName <-> In (d_fname d) reserved.
Proof. exact name_reject_iff. Qed.

Theorem C12_construct_ok_iff : forall reserved d,
  (exists s, construct reserved d = Ok s) <->
  ~ In (d_fname d) reserved /\ ~ sig_faulty (d_params d).
Proof. exact construct_ok_iff. Qed.

Theorem C12_set_name_iff : forall owner_is_sm attr sname,
  set_name owner_is_sm attr sname = Ok tt <-> attr = sname /\ owner_is_sm = true.
Proof. exact set_name_ok_iff. Qed.

(* A class body is a list of bindings, in source order:  @state def k ..
   ([SState]), a non-state ([SOther]),  k = k'  ([SLocal k'], the object the
   class namespace holds under k' at that line) and  k = C_c.__dict__[k']
   ([SRef c k'], the object an earlier class holds) -- the last two bind an
   EXISTING state object a second time.  [dicts] are the __dict__ of the
   classes defined before.
     [binds_state reserved dicts body k s]  the body finally leaves the state
        object s bound under k (name lookup: the nearest preceding binding);
     [entry_ok reserved dicts before m]     the line m can be executed after
        the lines [before]: its decorated function has a free name and a legal
        signature, resp. the name it reads is bound.

   __set_name__ runs for every binding, so a class statement whose body leaves
   a state bound under a different attribute name, or whose class is not a
   StateMachine, raises -- whether this is the first binding of that state
   object or a later one *)
Theorem C12_alias_owner : forall reserved dicts owner_is_sm body k s,
  binds_state reserved dicts body k s -> k <> s_name s \/ owner_is_sm = false ->
  exists e, define_class reserved dicts owner_is_sm body = Err e.
Proof. exact alias_owner_rejected. Qed.

(* with InvalidStateName resp. TypeError when every line of the body itself
   succeeded *)
Theorem C12_alias_owner_error : forall reserved dicts owner_is_sm body ns e,
  eval_body reserved dicts body [] = Ok ns -> define_class reserved dicts owner_is_sm body = Err e ->
  (e = EAlias /\ exists k s, binds_state reserved dicts body k s /\ k <> s_name s) \/
  (e = ENotStateMachine /\ owner_is_sm = false /\ exists k s, binds_state reserved dicts body k s).
Proof. exact alias_owner_error. Qed.

(* ... and these two exceptions come from __set_name__ only *)
Theorem C12_define_err_kinds : forall reserved dicts owner_is_sm body e,
  define_class reserved dicts owner_is_sm body = Err e ->
  (e = EAlias \/ e = ENotStateMachine) <-> exists ns, eval_body reserved dicts body [] = Ok ns.
Proof. exact define_err_kinds. Qed.

(* the state's name: a state created by a decorator is called like the
   function it was handed; the name it gets bound to is no input of
   [construct] *)
Theorem C12_state_name_fixed : forall reserved d s, construct reserved d = Ok s -> s_name s = d_fname d.
Proof. exact construct_name. Qed.

(*   @state def k(..): ..      (any lines that do not rebind k)
     k2 = k                    (not rebound below)
   is rejected unless k2 is the name of the function and the class is a
   StateMachine: a second name in the same class body is not accepted because
   the first binding was fine *)
Theorem C12_second_name_same_body : forall reserved dicts owner_is_sm pre k d mid k2 post,
  ~ In k (keys mid) -> ~ In k2 (keys post) -> k2 <> d_fname d \/ owner_is_sm = false ->
  exists e, define_class reserved dicts owner_is_sm
              (pre ++ (k, SState d) :: mid ++ (k2, SLocal k) :: post) = Err e.
Proof. exact rebinding_local_rejected. Qed.

(*   k = C_c.__dict__[k0]      (not rebound below), that object being a state:
   a derived class, another machine or a plain class that picks up an existing
   state is rejected unless k is the state's own name and the class is a
   StateMachine *)
Theorem C12_state_taken_from_class : forall reserved dicts owner_is_sm pre k c k0 s post,
  class_attr dicts c k0 = Some (MState s) -> ~ In k (keys post) ->
  k <> s_name s \/ owner_is_sm = false ->
  exists e, define_class reserved dicts owner_is_sm (pre ++ (k, SRef c k0) :: post) = Err e.
Proof. exact rebinding_from_class_rejected. Qed.

(* the class statement as a whole: accepted iff every line of the body can be
   executed (every decorated function -- overridden later or not -- has a free
   name and a legal signature, every name read is bound) and every state
   object the body finally binds, new or picked up, sits under its own name in
   a StateMachine *)
Theorem C12_define_ok_iff : forall reserved dicts owner_is_sm body,
  (exists ns, define_class reserved dicts owner_is_sm body = Ok ns) <->
  (forall before k m after, body = before ++ (k, m) :: after -> entry_ok reserved dicts before m) /\
  (forall k s, binds_state reserved dicts body k s -> k = s_name s /\ owner_is_sm = true).
Proof. exact define_ok_iff. Qed.

Theorem C12_define_ok_decorated : forall reserved dicts owner_is_sm body ns,
  define_class reserved dicts owner_is_sm body = Ok ns ->
  forall k d, In (k, SState d) body -> ~ In (d_fname d) reserved /\ ~ sig_faulty (d_params d).
Proof. exact define_ok_decorated. Qed.

(* a module of class statements: accepted iff each one is (judged with
   issubclass(owner, StateMachine) derived from its bases and with the
   __dict__ of the classes before it); else the first faulty class statement
   raises *)
Theorem C12_module : forall reserved cs,
  match define_all reserved cs with
  | Ok ds =>
      List.length ds = List.length cs /\
      forall i c, nth_error cs i = Some c ->
        exists ns, define_class reserved (firstn i ds) (nth i (sm_flags cs) false) (c_body c) = Ok ns /\
                   nth_error ds i = Some (ns ++ map (fun k => (k, MOther)) (c_extra c))
  | Err (j, e) =>
      exists c ds, nth_error cs j = Some c /\ List.length ds = j /\
        define_class reserved ds (nth j (sm_flags cs) false) (c_body c) = Err e /\
        forall i' c', i' < j -> nth_error cs i' = Some c' ->
          exists ns, define_class reserved (firstn i' ds) (nth i' (sm_flags cs) false) (c_body c') = Ok ns /\
                     nth_error ds i' = Some (ns ++ map (fun k => (k, MOther)) (c_extra c'))
  end.
Proof. exact define_all_spec. Qed.

(* in an accepted module every class __dict__ that holds a state object --
   created there or taken from elsewhere -- holds it under the state's own
   name, and that class is a StateMachine *)
Theorem C12_module_states_wellplaced : forall reserved cs ds, define_all reserved cs = Ok ds ->
  forall i d k s, nth_error ds i = Some d -> In (k, MState s) d ->
    k = s_name s /\ nth i (sm_flags cs) false = true.
Proof. exact define_all_wf. Qed.

(* the wrapper carries exactly the marks of the decorator expression *)
Theorem C12_marks_kept : forall reserved d s, construct reserved d = Ok s ->
  s_first s = marked_first (d_deco d) /\ s_must_finish s = marked_must_finish (d_deco d) /\
  s_default s = marked_default (d_deco d) /\ s_timed s = marked_timed (d_deco d) /\
  s_name s = d_fname d /\ s_desc s = d_doc d.
Proof. exact marks_kept. Qed.

(* [state] called with the function AND the options gives what the decorator
   it returns for the same options gives on that function *)
Theorem C12_state_call_paths_agree : forall reserved g first must_finish,
  exists dec, state_fn reserved None first must_finish = RDecorator dec /\
              state_fn reserved (Some g) first must_finish = RWrapper (dec g).
Proof. exact state_fn_paths_agree. Qed.

(* the spelling of the decorator is irrelevant: same function, same options
   => same state (or same exception) *)
Theorem C12_spelling_irrelevant : forall reserved d d',
  d_fname d = d_fname d' -> d_params d = d_params d' -> d_doc d = d_doc d' ->
  marked_first (d_deco d) = marked_first (d_deco d') ->
  marked_must_finish (d_deco d) = marked_must_finish (d_deco d') ->
  marked_timed (d_deco d) = marked_timed (d_deco d') ->
  marked_default (d_deco d) = marked_default (d_deco d') ->
  construct reserved d = construct reserved d'.
Proof. exact spelling_irrelevant. Qed.

(*   <decorator expression> def k(..)     (k not rebound below)
   in the body of an accepted class statement.  For every class whose most
   derived class this is (any base classes [rest]; [extra]: the non-state keys
   setattr adds to the class __dict__): k counts as first state / as default
   state at instantiation iff the source marks it so, and it is listed under
   the function's name with the function's docstring *)
Theorem C12_first_is_marked : forall reserved dicts owner_is_sm pre k d post ns extra rest,
  define_class reserved dicts owner_is_sm (pre ++ (k, SState d) :: post) = Ok ns ->
  ~ In k (keys post) -> ~ In k extra ->
  (first_in ((ns ++ map (fun x => (x, MOther)) extra) :: rest) k <-> marked_first (d_deco d) = true) /\
  (default_in ((ns ++ map (fun x => (x, MOther)) extra) :: rest) k <-> marked_default (d_deco d) = true) /\
  exists s, eff_state ((ns ++ map (fun x => (x, MOther)) extra) :: rest) k s /\
            s_name s = k /\ s_desc s = d_doc d.
Proof. exact first_is_marked. Qed.

(* a function the most derived class marks first is found *)
Theorem C12_marked_first_found : forall reserved dicts owner_is_sm pre k d post ns extra rest,
  define_class reserved dicts owner_is_sm (pre ++ (k, SState d) :: post) = Ok ns ->
  ~ In k (keys post) -> ~ In k extra -> marked_first (d_deco d) = true ->
  build_states ((ns ++ map (fun x => (x, MOther)) extra) :: rest) <> Err NoFirst.
Proof. exact marked_first_found. Qed.

(* two different functions of one class body marked first, each with any
   spelling: the class cannot be instantiated (and not for lack of a first state) *)
Theorem C12_two_marked_first_rejected :
  forall reserved dicts owner_is_sm body ns extra rest pre1 k1 d1 post1 pre2 k2 d2 post2,
  define_class reserved dicts owner_is_sm body = Ok ns ->
  body = pre1 ++ (k1, SState d1) :: post1 -> ~ In k1 (keys post1) ->
  body = pre2 ++ (k2, SState d2) :: post2 -> ~ In k2 (keys post2) ->
  k1 <> k2 -> ~ In k1 extra -> ~ In k2 extra ->
  marked_first (d_deco d1) = true -> marked_first (d_deco d2) = true ->
  exists e, build_states ((ns ++ map (fun x => (x, MOther)) extra) :: rest) = Err e /\ e <> NoFirst.
Proof. exact two_marked_first_rejected. Qed.

Theorem C12_direct_call : forall (A K : Type) (s : sdata) (args : list A) (kwargs : list (string * K)),
  call_state s args kwargs = Err IllegalCall.
Proof. exact (fun A K => @direct_call A K). Qed.

Theorem C12_names_exact : forall mro r, build_states mro = Ok r ->
  (forall n, In n (r_names r) <-> exists s, effective mro n = Some (MState s)) /\
  NoDup (r_names r) /\
  r_names r = filter (fun n => is_state_opt (effective mro n)) (dedup_first (bases_first mro)) /\
  r_descs r = map (fun n => desc_opt (effective mro n)) (r_names r).
Proof. exact names_exact. Qed.

Theorem C12_descs_aligned : forall mro r, build_states mro = Ok r ->
  List.length (r_descs r) = List.length (r_names r) /\
  forall i, i < List.length (r_names r) ->
    nth i (r_descs r) "" = desc_opt (effective mro (nth i (r_names r) "")).
Proof. exact descs_aligned. Qed.

(* Vocabulary (Defs/Model.v, Defs/Spec.v, proof-free):
     a [world] is the class table as it is NOW -- the __dict__ of every class,
       which instantiation itself changes: a successful C() sets the attributes
       state_names and state_descriptions on C -- and the NetworkTables topics;
     an [event] is  EInst mro cname:  o = C(); setup_tunables(o, cname,
       "components")  for the class C with that MRO (the instance stays alive),
       or  EPublish key v:  another client sets a topic;
     [run_history w h] the outcome of every event of h in turn: [ORaised e],
       [OBound r names descs] (names/descs: o.state_names / o.state_descriptions
       read after binding), [OPublished];
     [class_outcome dicts mro] what the class alone says: the exception of its
       multiplicity check, or the instance with r_names / r_descs;
     [published_free dicts] no class holds a STATE under the key state_names or
       state_descriptions.

   Attempt k of ANY history -- whatever was instantiated before (this class or
   a base class or a subclass, successfully or not, any number of times, in any
   order), whatever was bound under whatever name and whatever the topics held
   -- gives what its class gives: the same verdict as a first attempt on the
   untouched classes, and on success the class's own two lists. *)
Theorem C12_history_independent : forall dicts nt h k mro cname,
  published_free dicts ->
  nth_error h k = Some (EInst mro cname) ->
  nth_error (run_history {| w_dicts := dicts; w_nt := nt |} h) k = Some (class_outcome dicts mro).
Proof. exact history_independent. Qed.

(* .. so every attempt, not just the first, yields an instance iff exactly one
   effective state is first and at most one is a default state *)
Theorem C12_history_verdict_iff : forall dicts nt h k mro cname,
  published_free dicts ->
  nth_error h k = Some (EInst mro cname) ->
  ((exists r names descs,
      nth_error (run_history {| w_dicts := dicts; w_nt := nt |} h) k = Some (OBound r names descs)) <->
   exactly_one_first (bodies_of dicts mro) /\ at_most_one_default (bodies_of dicts mro)).
Proof. exact history_verdict_iff. Qed.

(* an attempt that raises leaves classes and topics as they were *)
Theorem C12_failed_attempt_no_effect : forall w mro cname w' e,
  step w (EInst mro cname) = (w', ORaised e) -> w' = w.
Proof. exact failed_attempt_no_effect. Qed.

(* in an accepted module no state is called like an attribute of StateMachine,
   wherever the object was created *)
Theorem C12_module_names_free : forall reserved cs ds, define_all reserved cs = Ok ds ->
  forall d k s, In d ds -> In (k, MState s) d -> k = s_name s /\ ~ In k reserved.
Proof. exact define_all_names_free. Qed.

(* .. hence for the classes of an accepted module (state_names and
   state_descriptions being attributes of StateMachine) every history is
   judged class by class *)
Theorem C12_history_module : forall reserved cs ds nt h k mro cname,
  In "state_names" reserved -> In "state_descriptions" reserved ->
  define_all reserved cs = Ok ds ->
  nth_error h k = Some (EInst mro cname) ->
  nth_error (run_history {| w_dicts := ds; w_nt := nt |} h) k = Some (class_outcome ds mro).
Proof. exact history_module. Qed.

(* binding: setup_tunables puts the lists of THIS machine on its two topics
   whatever they held before (an earlier machine bound under the same name, a
   dashboard); every other topic keeps its value *)
Theorem C12_bind_overwrites : forall nt cname r,
  dict_get (topic cname "state_names") (bind_machine nt cname r) = Some (r_names r) /\
  dict_get (topic cname "state_descriptions") (bind_machine nt cname r) = Some (r_descs r) /\
  forall key, key <> topic cname "state_names" -> key <> topic cname "state_descriptions" ->
    dict_get key (bind_machine nt cname r) = dict_get key nt.
Proof. exact bind_overwrites. Qed.

(* A [decl] is what the state decorator can see of the function it is handed:
   its __name__, the parameters inspect.signature reports for IT (following
   __wrapped__ of a functools.wraps-based decorator, honouring __signature__ of
   a factory product, the remaining parameters of a functools.partial object),
   its docstring.  How the function was produced -- and what it shares with
   functions decorated before it, e.g. the code object of a common wrapper --
   is not an input of the model.

   A decorated function with a colliding name or a faulty signature makes the
   class statement raise, whatever the lines above it defined (legal states
   behind the same wrapper included), whatever earlier classes hold, whatever
   follows *)
Theorem C12_faulty_decorated_rejected : forall reserved dicts owner_is_sm pre k d post,
  In (d_fname d) reserved \/ sig_faulty (d_params d) ->
  exists e, define_class reserved dicts owner_is_sm (pre ++ (k, SState d) :: post) = Err e.
Proof. exact faulty_decorated_rejected. Qed.

(* .. with exactly the exception the decorator raises for this function alone,
   once the lines above it have run through *)
Theorem C12_decorated_verdict_own : forall reserved dicts owner_is_sm pre ns k d post e,
  eval_body reserved dicts pre [] = Ok ns -> construct reserved d = Err e ->
  define_class reserved dicts owner_is_sm (pre ++ (k, SState d) :: post) = Err e.
Proof. exact decorated_verdict_own. Qed.

(* in an accepted module every decorated function of every class -- first or
   last, overridden or not -- has a free name and a legal signature *)
Theorem C12_module_decorated_legal : forall reserved cs ds, define_all reserved cs = Ok ds ->
  forall c k d, In c cs -> In (k, SState d) (c_body c) ->
    ~ In (d_fname d) reserved /\ ~ sig_faulty (d_params d).
Proof. exact module_decorated_legal. Qed.

(* Non-vacuity: the hypotheses above can be met, every verdict and every error
   occurs.  One theorem has no example here: [nv_reserved] lacks
   "state_descriptions", so the premises of [C12_history_module] are met only
   by the list regenerated from the class (work/C12/Gen_C12.v);
   [C12_nv_history] shows [published_free ds], the premise of
   [C12_history_independent], directly. *)

Definition nvp (n : string) : param := {| p_name := n; p_kind := PosOrKw |}.
Definition nvd (n : string) (ps : list string) (doc : option string) (k : deco) : decl :=
  {| d_fname := n; d_params := map nvp ps; d_doc := doc; d_deco := k |}.
Definition nv_reserved : list string := ["done"; "engage"; "state_names"; "logger"].

(* The class table of an accepted module is a large term, and a witness
   written out (or found by [reflexivity]) is stored in the proof and carried
   through every later conjunct.
   [table] closes the first conjunct  define_all .. = Ok ?ds  with the witness
   [the_ok [] (define_all ..)], the table named by the expression that computes it;
   [evaluated] closes the remaining conjuncts by evaluation, one at a time (an
   instance left open is fixed by the conjunct that computes it). *)
Definition the_ok {A E} (d : A) (r : result A E) : A := match r with Ok a => a | Err _ => d end.
Ltac table :=
  apply conj; [match goal with |- ?m = Ok ?ds => unify ds (the_ok [] m) end; reflexivity|].
Ltac evaluated := repeat (apply conj; [vm_compute; reflexivity|]); vm_compute; reflexivity.

(* a diamond: A defines a (first), b, z; B(A) overrides b by a plain
   attribute; C(A) overrides a by a first state with another doc and adds a
   default state; D(B, C) adds k.  MRO of D: D, B, C, A. *)
Definition nv_A := [("a", SState (nvd "a" ["self"] (Some "A.a") (DState true false)));
                    ("b", SState (nvd "b" ["self"; "tm"] None (DState false false)));
                    ("z", SState (nvd "z" ["self"; "state_tm"; "tm"] (Some "A.z") (DTimed false true)))].
Definition nv_B := [("m", SState (nvd "m" ["self"] None (DState false false))); ("b", SOther)].
Definition nv_C := [("n", SState (nvd "n" ["self"; "initial_call"] (Some "C.n") DDefault));
                    ("a", SState (nvd "a" ["self"] (Some "C.a") (DState true false)))].
Definition nv_D := [("k", SState (nvd "k" [] None (DState false false)))].
Definition nv_module : list classdef :=
  [ {| c_bases := [BSM]; c_body := nv_A; c_extra := ["z_duration"] |};
    {| c_bases := [BClass 0]; c_body := nv_B; c_extra := [] |};
    {| c_bases := [BClass 0]; c_body := nv_C; c_extra := [] |};
    {| c_bases := [BClass 1; BClass 2]; c_body := nv_D; c_extra := [] |} ].

Example C12_nv_accepted :
  exists ds r, define_all nv_reserved nv_module = Ok ds /\ instantiate ds [3; 1; 2; 0] = Ok r /\
    r_first r = "a" /\ r_default r = Some "n" /\
    r_names r = ["a"; "z"; "n"; "m"; "k"] /\ r_descs r = ["C.a"; "A.z"; "C.n"; ""; ""].
Proof. do 2 eexists. table. evaluated. Qed.

(* the same module, instantiating B (MRO B, A): b is overridden by a plain
   attribute and disappears; A alone keeps it *)
Example C12_nv_override_removes :
  exists ds rB rA, define_all nv_reserved nv_module = Ok ds /\
    instantiate ds [1; 0] = Ok rB /\ r_names rB = ["a"; "z"; "m"] /\
    instantiate ds [0] = Ok rA /\ r_names rA = ["a"; "b"; "z"].
Proof. do 3 eexists. table. evaluated. Qed.

(* each of the three instantiation errors occurs *)
Example C12_nv_errors :
  build_states [[("b", MOther)]] = Err NoFirst /\
  (exists ds, define_all nv_reserved
     [ {| c_bases := [BSM]; c_body := nv_A; c_extra := [] |};
       {| c_bases := [BClass 0];
          c_body := [("c", SState (nvd "c" ["self"] None (DState true false)))]; c_extra := [] |} ] = Ok ds /\
     instantiate ds [1; 0] = Err MultipleFirst /\ instantiate ds [0] <> Err MultipleFirst) /\
  (exists ds, define_all nv_reserved
     [ {| c_bases := [BSM]; c_body := nv_C; c_extra := [] |};
       {| c_bases := [BClass 0];
          c_body := [("d", SState (nvd "d" ["self"] None DDefault))]; c_extra := [] |} ] = Ok ds /\
     instantiate ds [1; 0] = Err MultipleDefault).
Proof.
  repeat apply conj.
  - reflexivity.
  - eexists. table. split; [evaluated | vm_compute; discriminate].
  - eexists. table. evaluated.
Qed.

(* every rejection at class-definition time occurs, with its own exception;
   a collision wins over a bad signature; positional-only parameters and an
   empty signature are accepted *)
Example C12_nv_definition_errors :
  construct nv_reserved (nvd "done" ["self"] None (DState true false)) = Err EInvalidStateName /\
  construct nv_reserved (nvd "logger" ["tm"] None DDefault) = Err EInvalidStateName /\
  construct nv_reserved (nvd "s" ["tm"; "self"] None (DState true false)) = Err (ESig ErrFirstNotSelf) /\
  construct nv_reserved {| d_fname := "s"; d_params := [nvp "self"; {| p_name := "a"; p_kind := VarPos |}];
                           d_doc := None; d_deco := DDefault |} = Err (ESig ErrVarPos) /\
  construct nv_reserved {| d_fname := "s"; d_params := [nvp "self"; {| p_name := "tm"; p_kind := KwOnly |}];
                           d_doc := None; d_deco := DDefault |} = Err (ESig ErrKwOnly) /\
  construct nv_reserved {| d_fname := "s"; d_params := [nvp "self"; {| p_name := "k"; p_kind := VarKw |}];
                           d_doc := None; d_deco := DDefault |} = Err (ESig ErrVarKw) /\
  construct nv_reserved (nvd "s" ["self"; "now"; "tm"; "x"] None DDefault) = Err (ESig (ErrInvalidNames ["now"; "x"])) /\
  (exists s, construct nv_reserved {| d_fname := "s"; d_params := [{| p_name := "self"; p_kind := PosOnly |}; nvp "tm"];
                                      d_doc := None; d_deco := DDefault |} = Ok s) /\
  (exists s, construct nv_reserved (nvd "s" [] None DDefault) = Ok s) /\
  define_class nv_reserved [] true [("t", SState (nvd "s" ["self"] None (DState true false)))] = Err EAlias /\
  define_class nv_reserved [] false [("s", SState (nvd "s" ["self"] None (DState true false)))] = Err ENotStateMachine /\
  (exists ns, define_class nv_reserved [] false [("s", SState (nvd "s" ["self"] None (DState true false))); ("s", SOther)] = Ok ns).
Proof. repeat split; try reflexivity; eexists; reflexivity. Qed.

(* second bindings of an existing state object.  C0 defines work (first,
   timed) correctly; then:  again = work  in the same body;  a derived class
   and an unrelated machine binding C0's state as retry;  a plain class
   binding it as work;  -- all rejected --  and, accepted, a derived class and
   another machine binding it under its own name (the other machine then has
   exactly the states start, work). *)
Definition nv_work := ("work", SState (nvd "work" ["self"; "tm"] (Some "does the work") (DTimed true false))).
Definition nv_base : classdef := {| c_bases := [BSM]; c_body := [nv_work]; c_extra := ["work_duration"] |}.
Definition nv_then (bases : list base) (body : list (string * smember)) : list classdef :=
  [nv_base; {| c_bases := bases; c_body := body; c_extra := [] |}].

Example C12_nv_second_binding :
  define_all nv_reserved [{| c_bases := [BSM]; c_body := [nv_work; ("again", SLocal "work")]; c_extra := [] |}]
    = Err (0, EAlias) /\
  define_all nv_reserved [{| c_bases := [BSM]; c_body := [("again", SOther); nv_work; ("again", SLocal "work")];
                             c_extra := [] |}] = Err (0, EAlias) /\
  define_all nv_reserved (nv_then [BClass 0] [("retry", SRef 0 "work")]) = Err (1, EAlias) /\
  define_all nv_reserved (nv_then [BSM] [("retry", SRef 0 "work")]) = Err (1, EAlias) /\
  define_all nv_reserved (nv_then [] [("work", SRef 0 "work")]) = Err (1, ENotStateMachine) /\
  define_all nv_reserved (nv_then [] [("retry", SRef 0 "work")]) = Err (1, EAlias) /\
  define_all nv_reserved (nv_then [BSM] [("x", SLocal "nosuch")]) = Err (1, EUnbound) /\
  define_all nv_reserved (nv_then [BSM] [("x", SRef 0 "nosuch")]) = Err (1, EUnbound) /\
  (exists ds, define_all nv_reserved (nv_then [] [("work", SRef 0 "work"); ("work", SOther)]) = Ok ds) /\
  (exists ds r, define_all nv_reserved (nv_then [BClass 0] [("work", SRef 0 "work")]) = Ok ds /\
     instantiate ds [1; 0] = Ok r /\ r_names r = ["work"] /\ r_first r = "work") /\
  (exists ds r, define_all nv_reserved
       (nv_then [BSM] [("start", SState (nvd "start" ["self"] (Some "starts") (DState false false)));
                       ("work", SRef 0 "work"); ("tmp", SLocal "work"); ("tmp", SOther)]) = Ok ds /\
     instantiate ds [1] = Ok r /\ r_names r = ["start"; "work"] /\ r_descs r = ["starts"; "does the work"] /\
     r_first r = "work").
Proof.
  do 8 (split; [reflexivity|]).
  split; [eexists; reflexivity|]. split; do 2 eexists; table; evaluated.
Qed.

(* the plain-call spelling  go = state(go, first=True).  A machine whose only
   first state is spelled that way instantiates and starts there; a second
   first state spelled that way (same class / subclass) is MultipleFirst; a
   subclass overriding the inherited first state by  go = state(go)  (no mark)
   has no first state; bare @state marks nothing; both spellings give the same
   state *)
Definition nv_go (k : deco) := ("go", SState (nvd "go" ["self"] (Some "start") k)).
Definition nv_one (body : list (string * smember)) : classdef :=
  {| c_bases := [BSM]; c_body := body; c_extra := [] |}.

Example C12_nv_call_spelling :
  (exists ds r, define_all nv_reserved [nv_one [nv_go (DStateCall true false);
                                                ("b", SState (nvd "b" ["self"] None (DStateCall false true)))]] = Ok ds /\
     instantiate ds [0] = Ok r /\ r_first r = "go" /\ r_names r = ["go"; "b"] /\ r_descs r = ["start"; ""]) /\
  (exists ds, define_all nv_reserved [nv_one [nv_go (DState true false);
                                              ("b", SState (nvd "b" ["self"] None (DStateCall true false)))]] = Ok ds /\
     instantiate ds [0] = Err MultipleFirst) /\
  (exists ds, define_all nv_reserved
       [nv_one [nv_go (DState true false)];
        {| c_bases := [BClass 0]; c_body := [("b", SState (nvd "b" ["self"] None (DStateCall true false)))]; c_extra := [] |};
        {| c_bases := [BClass 0]; c_body := [nv_go (DStateCall false false)]; c_extra := [] |};
        {| c_bases := [BClass 0]; c_body := [nv_go (DStateCall true true)]; c_extra := [] |}] = Ok ds /\
     instantiate ds [1; 0] = Err MultipleFirst /\ instantiate ds [2; 0] = Err NoFirst /\
     (exists r, instantiate ds [3; 0] = Ok r /\ r_first r = "go")) /\
  construct nv_reserved (nvd "go" ["self"] None (DStateCall true false)) =
    construct nv_reserved (nvd "go" ["self"] None (DState true false)) /\
  (exists s, construct nv_reserved (nvd "go" ["self"] None (DStateCall true true)) = Ok s /\
     s_first s = true /\ s_must_finish s = true /\ s_default s = false /\ s_timed s = false) /\
  construct nv_reserved (nvd "done" ["self"] None (DStateCall true false)) = Err EInvalidStateName.
Proof.
  repeat apply conj.
  - do 2 eexists. table. evaluated.
  - eexists. table. evaluated.
  - eexists. table. do 2 (split; [evaluated|]). eexists. evaluated.
  - reflexivity.
  - eexists. evaluated.
  - reflexivity.
Qed.

(* histories.  C0: a (first), b.  C1(C0): a second first state z.  C2(C0):
   overrides a without the mark.  C3(StateMachine): x (first), y, both
   documented.  The malformed classes C1 and C2 are attempted three times and twice, before
   and after their base class; C0 and C3 are bound under the SAME component
   name, on top of a value a dashboard left there; every attempt says what the
   class says, and the topics end up holding the lists of the machine bound last *)
Definition nv_hist_module : list classdef :=
  [ nv_one [("a", SState (nvd "a" ["self"] (Some "A.a") (DState true false)));
            ("b", SState (nvd "b" ["self"] None (DState false false)))];
    {| c_bases := [BClass 0]; c_body := [("z", SState (nvd "z" ["self"] None (DTimed true false)))];
       c_extra := ["z_duration"] |};
    {| c_bases := [BClass 0]; c_body := [("a", SState (nvd "a" ["self"] None (DStateCall false false)))];
       c_extra := [] |};
    nv_one [("x", SState (nvd "x" ["self"] (Some "X.x") (DState true false)));
            ("y", SState (nvd "y" ["self"; "tm"] (Some "X.y") DDefault))] ].
Definition nv_history : list event :=
  [ EInst [1; 0] "m"; EInst [0] "m"; EInst [1; 0] "m"; EInst [2; 0] "m";
    EPublish (topic "m" "state_names") ["old_a"; "old_b"; "old_c"];
    EInst [3] "m"; EInst [2; 0] "other"; EInst [0] "m"; EInst [1; 0] "m"; EInst [0] "m2"; EInst [3] "m" ].

Example C12_nv_history :
  exists ds rA rX,
    define_all nv_reserved nv_hist_module = Ok ds /\ published_free ds /\
    instantiate ds [0] = Ok rA /\ r_names rA = ["a"; "b"] /\ r_descs rA = ["A.a"; ""] /\
    instantiate ds [3] = Ok rX /\ r_names rX = ["x"; "y"] /\ r_descs rX = ["X.x"; "X.y"] /\
    run_history {| w_dicts := ds; w_nt := [(topic "m" "state_descriptions", ["stale"])] |} nv_history =
      [ ORaised MultipleFirst; OBound rA ["a"; "b"] ["A.a"; ""]; ORaised MultipleFirst; ORaised NoFirst;
        OPublished;
        OBound rX ["x"; "y"] ["X.x"; "X.y"]; ORaised NoFirst; OBound rA ["a"; "b"] ["A.a"; ""];
        ORaised MultipleFirst; OBound rA ["a"; "b"] ["A.a"; ""]; OBound rX ["x"; "y"] ["X.x"; "X.y"] ] /\
    (* instantiation did change the class table: C0 now carries the two attributes *)
    (exists w, fst (step {| w_dicts := ds; w_nt := [] |} (EInst [0] "m")) = w /\
       keys (nth 0 (w_dicts w) []) = ["a"; "b"; "state_names"; "state_descriptions"] /\
       w_nt w = [(topic "m" "state_descriptions", ["A.a"; ""]); (topic "m" "state_names", ["a"; "b"])]).
Proof.
  do 3 eexists. table. split; [apply published_freeb_sound; evaluated|].
  do 7 (split; [evaluated|]). eexists. split; [reflexivity | evaluated].
Qed.

(* two functions that differ in their signature only (think of both behind one
   functools.wraps decorator: same code object).  ok(self, tm) then bad(self,
   speed): rejected with the ValueError of bad; the other order: the same
   error; bad in a derived class / in an unrelated machine defined after a class
   with ok: that class statement raises; ok twice with different legal
   signatures: two states with their own argument lists *)
Definition nv_ok := ("ok", SState (nvd "ok" ["self"; "tm"] (Some "fine") (DState true false))).
Definition nv_bad := ("bad", SState (nvd "bad" ["self"; "speed"] (Some "bad one") (DState false false))).

Example C12_nv_judged_alone :
  define_all nv_reserved [nv_one [nv_ok; nv_bad]] = Err (0, ESig (ErrInvalidNames ["speed"])) /\
  define_all nv_reserved [nv_one [nv_bad; nv_ok]] = Err (0, ESig (ErrInvalidNames ["speed"])) /\
  define_all nv_reserved [nv_one [nv_ok]; {| c_bases := [BClass 0]; c_body := [nv_bad]; c_extra := [] |}]
    = Err (1, ESig (ErrInvalidNames ["speed"])) /\
  define_all nv_reserved [nv_one [nv_ok]; nv_one [nv_ok; ("m", SOther); nv_bad]]
    = Err (1, ESig (ErrInvalidNames ["speed"])) /\
  construct nv_reserved (nvd "bad" ["self"; "speed"] (Some "bad one") (DState false false))
    = Err (ESig (ErrInvalidNames ["speed"])) /\
  (exists ds s1 s2, define_all nv_reserved
       [nv_one [nv_ok; ("b", SState (nvd "b" ["self"; "state_tm"; "initial_call"] None (DStateCall false false)))]] = Ok ds /\
     dict_get "ok" (nth 0 ds []) = Some (MState s1) /\ s_args s1 = ["self"; "tm"] /\
     dict_get "b" (nth 0 ds []) = Some (MState s2) /\ s_args s2 = ["self"; "state_tm"; "initial_call"]).
Proof. do 5 (split; [reflexivity|]). do 3 eexists. table. evaluated. Qed.

(* the adapter really reorders: declared (self, state_tm, tm) *)
Example C12_nv_adapter :
  exists args, validate_sig (map nvp ["self"; "state_tm"; "tm"]) = Ok args /\
    adapter args {| e_self := 0; e_tm := 1; e_state_tm := 2; e_initial_call := 3 |} = [Some 0; Some 2; Some 1].
Proof. eexists. split; reflexivity. Qed.

Print Assumptions C12_build_ok_iff.
Print Assumptions C12_build_ok_sound.
Print Assumptions C12_build_err_sound.
Print Assumptions C12_members_are_effective.
Print Assumptions C12_sig_reject_iff.
Print Assumptions C12_sig_accept_order.
Print Assumptions C12_sig_err_sound.
Print Assumptions C12_name_reject_iff.
Print Assumptions C12_construct_ok_iff.
Print Assumptions C12_set_name_iff.
Print Assumptions C12_alias_owner.
Print Assumptions C12_alias_owner_error.
Print Assumptions C12_define_err_kinds.
Print Assumptions C12_state_name_fixed.
Print Assumptions C12_second_name_same_body.
Print Assumptions C12_state_taken_from_class.
Print Assumptions C12_define_ok_iff.
Print Assumptions C12_define_ok_decorated.
Print Assumptions C12_module.
Print Assumptions C12_module_states_wellplaced.
Print Assumptions C12_marks_kept.
Print Assumptions C12_state_call_paths_agree.
Print Assumptions C12_spelling_irrelevant.
Print Assumptions C12_first_is_marked.
Print Assumptions C12_marked_first_found.
Print Assumptions C12_two_marked_first_rejected.
Print Assumptions C12_direct_call.
Print Assumptions C12_names_exact.
Print Assumptions C12_descs_aligned.
Print Assumptions C12_history_independent.
Print Assumptions C12_history_verdict_iff.
Print Assumptions C12_failed_attempt_no_effect.
Print Assumptions C12_module_names_free.
Print Assumptions C12_history_module.
Print Assumptions C12_bind_overwrites.
Print Assumptions C12_faulty_decorated_rejected.
Print Assumptions C12_decorated_verdict_own.
Print Assumptions C12_module_decorated_legal.
