(* C13 -- AutonomousStateMachine runs once per enable and never loops.

   [sh_auto sh = true] selects AutonomousStateMachine: its done() also withdraws
   the engage request and turns its latch [auto_on] off; on_iteration engages and
   executes only while the latch is on and then sets the latch to is_executing.
   Statements only. *)
From Coq Require Import ZArith List Bool.
From RecordUpdate Require Import RecordSet.
Import RecordSetNotations.
From RV Require Import SM.Model SM.Basics SM.Engage SM.Invariants SM.Stop SM.Timing SM.Auto SM.Drift SM.Check SM.Examples.
Import ListNotations.
Open Scope Z_scope.

Section C13.
Variable sh : shape.
Variable body : nat -> name -> Z -> Z -> bool -> list action.

(* after on_enable(), on_iteration() runs the machine exactly as if engage() were
   called before the iteration *)
Theorem C13_as_if_engaged : forall fuel m now, auto_on m = true ->
  step sh body fuel m (AOnIteration now) =
  (let '(m1, e1) := step sh body fuel m (Engage None false) in
   let '(m2, e2) := step sh body fuel m1 (Execute now) in
   (m2 <| auto_on := engaged m2 |>, e1 ++ e2)).
Proof. exact (auto_iteration_as_if_engaged sh body). Qed.

(* once done() has been invoked in an iteration -- by a state function at any
   nesting depth, or because the last timed state expired -- the iteration ends
   with the machine stopped and the latch off: it never cycles back *)
Theorem C13_done_latches_off : forall fuel m now,
  sh_auto sh = true -> auto_on m = true ->
  ok (snd (step sh body fuel m (AOnIteration now))) ->
  In EvDone (snd (step sh body fuel m (AOnIteration now))) ->
  let m' := fst (step sh body fuel m (AOnIteration now)) in
  auto_on m' = false /\ engaged m' = false.
Proof. exact (fun fuel m now Ha Hon _ => auto_done_latches_off sh body fuel m now Ha Hon). Qed.

(* ... and this needs no usage contract at all: whatever the state functions do after
   done() (more transitions, next_state_now(), done() again), for every user code *)
Theorem C13_done_latches_off_for_any_user_code : forall fuel m now,
  sh_auto sh = true -> auto_on m = true ->
  In EvDone (snd (step sh body fuel m (AOnIteration now))) ->
  let m' := fst (step sh body fuel m (AOnIteration now)) in
  auto_on m' = false /\ engaged m' = false.
Proof. exact (auto_done_latches_off sh body). Qed.

(* the iteration in which the last timed state expires begins with done(); by
   C13_done_latches_off it therefore ends with the machine stopped and the latch off
   (the statement of C02_expiry_of_last_state_finishes at an autonomous shape) *)
Theorem C13_last_state_expiry_finishes : forall nested m now s dc,
  sh_auto sh = true ->
  engaged m = true -> cur m = Some s -> ran (sdat m s) = true ->
  st_exp (sdat m s) < now - start m ->
  lookup sh s = Some dc -> d_timed dc = true -> d_next dc = None -> clk m <= now ->
  exists e, snd (exec_step sh body nested m now) = EvDone :: e.
Proof. exact (fun nested m now s dc _ => expiry_calls_done sh body nested m now s dc). Qed.

(* from then on no state function is called -- not even a default state -- and
   is_executing stays False, for every sequence of on_iteration/on_disable calls,
   until the next on_enable() *)
Theorem C13_nothing_until_enable : forall fuel h m, sh_auto sh = true ->
  auto_on m = false -> engaged m = false -> forallb auto_idle_op h = true ->
  let '(m', es) := run sh body fuel m h in
  auto_on m' = false /\ engaged m' = false /\ Forall (fun e => e = EvDone) (concat es).
Proof. exact (auto_off_until_enable sh body). Qed.

Theorem C13_off_is_noop : forall fuel m now, auto_on m = false ->
  step sh body fuel m (AOnIteration now) = (m, []).
Proof. exact (auto_off_noop sh body). Qed.

(* the next on_enable() starts again from the first state with tm at zero *)
Theorem C13_reenable_fresh : forall fuel m now, wf_shape sh -> sh_auto sh = true ->
  engaged m = false -> (cur m = None \/ at_default sh m = true) -> clk m <= now ->
  let m0 := fst (step sh body (S fuel) m AOnEnable) in
  let f := sh_first sh in
  auto_on m0 = true /\
  exists e, snd (step sh body (S fuel) m0 (AOnIteration now)) =
            EvEnter f :: EvBk f (now + 0) (now + (0 + duration_of sh m f)) :: EvCall f 0 0 true true :: e.
Proof. exact (fun fuel m now Hwf _ => auto_reenable_fresh sh body Hwf fuel m now). Qed.

(* on_disable() stops the machine immediately *)
Theorem C13_disable_stops : forall fuel m, sh_auto sh = true ->
  let m' := fst (step sh body fuel m AOnDisable) in
  snd (step sh body fuel m AOnDisable) = [EvDone] /\
  engaged m' = false /\ auto_on m' = false /\ should m' = false /\ cur m' = None /\ nt_cur m' = None.
Proof. exact (auto_disable_stops sh body). Qed.
End C13.

(* Non-vacuity: the example machine as an AutonomousStateMachine: a(4) -> b(2) -> end.
   Two autonomous periods: in the first the machine runs a, b, finishes through done() and
   then ignores further iterations; the second starts fresh with a and is ended by the
   disable; an iteration after it does nothing. *)
Definition auto_hist : list op :=
  [ AOnEnable; AOnIteration 100; AOnIteration 103; AOnIteration 105; AOnIteration 106;
    AOnIteration 108; AOnIteration 109; AOnIteration 110; AOnDisable;
    AOnEnable; AOnIteration 200; AOnIteration 201; AOnDisable; AOnIteration 202 ].
Example C13_nv :
  wf_shape (ex_shape true) /\
  ok (concat (snd (run (ex_shape true) body0 8 ex_init auto_hist))) /\
  map (fun t => filter (fun e => match e with EvCall _ _ _ _ _ | EvDone => true | _ => false end) t)
      (snd (run (ex_shape true) body0 8 ex_init auto_hist))
  = [ []; [EvCall 0%nat 0 0 true true]; [EvCall 0%nat 3 3 false true]; [EvCall 1%nat 5 1 true true];
      [EvCall 1%nat 6 2 false true]; [EvDone; EvCall 3%nat 8 2 true false]; []; []; [EvDone];
      []; [EvCall 0%nat 0 0 true true]; [EvCall 0%nat 1 1 false true]; [EvDone]; [] ].
Proof.
  split; [apply wf_shapeb_sound; vm_compute; reflexivity|].
  split; [apply okb_ok; vm_compute; reflexivity|]. vm_compute. reflexivity.
Qed.

Print Assumptions C13_as_if_engaged.
Print Assumptions C13_done_latches_off.
Print Assumptions C13_done_latches_off_for_any_user_code.
Print Assumptions C13_last_state_expiry_finishes.
Print Assumptions C13_nothing_until_enable.
Print Assumptions C13_off_is_noop.
Print Assumptions C13_reenable_fresh.
Print Assumptions C13_disable_stops.
