(* C20 -- crc7 equals the bitwise CRC-7 (reflected polynomial 0x91) for every
   message; linear over XOR; detects single-bit, close double-bit and burst<=7
   errors.  Statements only; every proof is [exact] of a lemma of CRC.Proofs
   applied to the table hypothesis; the examples are evaluated.

   [T] is the lookup table of the implementation.  The hypothesis
   [table_ok T = true] (T is, entry by entry, the 256 values of the bit-serial
   round function) is discharged on every run for the table regenerated from
   /repo's robotpy_ext.misc.crc7._crc7_table (work/C20/Gen_C20.v). *)
From Coq Require Import NArith List.
From RV Require Import CRC.Model CRC.Proofs.
Import ListNotations.
Open Scope N_scope.

Section C20.
Variable T : list N.
Hypothesis HT : table_ok T = true.

(* for every byte string, of every length *)
Theorem C20_table_equals_bitwise : forall data,
  Forall is_byte data -> crc_table T data = crc_bitwise data.
Proof. exact (fun data => table_equals_bitwise T data HT). Qed.

(* ... also when the table lookup is modelled as partial (IndexError) *)
Theorem C20_no_index_error : forall data,
  Forall is_byte data -> crc_table_opt T data = Some (crc_bitwise data).
Proof. exact (fun data => table_opt_total T data HT). Qed.

(* the bit-serial reading of the reference: LSB first, one shift per bit *)
Theorem C20_bitwise_is_bit_serial : forall data,
  Forall is_byte data -> crc_bitwise data = crc_bits (bits_of_bytes data).
Proof. exact bitwise_is_bit_serial. Qed.

Theorem C20_seven_bits : forall data,
  Forall is_byte data -> crc_table T data < 128.
Proof. exact (fun data => table_seven_bits T data HT). Qed.

Theorem C20_linear : forall a b,
  Forall is_byte a -> Forall is_byte b -> length a = length b ->
  crc_table T (xor_bytes a b) = N.lxor (crc_table T a) (crc_table T b).
Proof. exact (fun a b => table_linear T a b HT). Qed.

(* [apply_error err data] flips exactly the bits of [data] marked in [err]
   (message-wide bit positions, LSB of the first byte is position 0). *)
Theorem C20_apply_error_flips : forall err data,
  length err = (8 * length data)%nat ->
  bits_of_bytes (apply_error err data) = xorb_list (bits_of_bytes data) err
  /\ length (apply_error err data) = length data.
Proof. exact apply_error_flips. Qed.

Definition changes_checksum (err : list bool) : Prop :=
  forall data, Forall is_byte data -> length err = (8 * length data)%nat ->
  crc_table T (apply_error err data) <> crc_table T data.

(* any single flipped bit, anywhere in a message of any length *)
Theorem C20_single_bit : forall pre post, changes_checksum (single_bit pre post).
Proof. exact (fun pre post => table_detects T _ HT (single_bit_nonzero pre post)). Qed.

(* any two flipped bits whose positions differ by gap+1 < 127 *)
Theorem C20_double_bit : forall pre gap post, (gap + 1 < 127)%nat ->
  changes_checksum (double_bit pre gap post).
Proof. exact (fun pre gap post H => table_detects T _ HT (double_bit_nonzero pre gap post H)). Qed.

(* any non-empty error pattern confined to 7 consecutive bit positions *)
Theorem C20_burst7 : forall pre mid post, (length mid <= 6)%nat ->
  changes_checksum (burst pre mid post).
Proof. exact (fun pre mid post H => table_detects T _ HT (burst_nonzero pre mid post H)). Qed.

End C20.

(* Non-vacuity: the hypothesis is satisfiable (by the table the reference
   itself generates) and the premises of the detection theorems are met by
   concrete messages. *)
Example C20_nv_table : table_ok bitwise_table = true.
Proof. vm_compute. reflexivity. Qed.
Example C20_nv_message :
  Forall is_byte [1; 2; 255] /\ length (double_bit 3 9 10) = (8 * length [1; 2; 255])%nat
  /\ crc_table bitwise_table [1; 2; 255] = 69
  /\ crc_table bitwise_table (apply_error (double_bit 3 9 10) [1; 2; 255]) = 2.
Proof. repeat split; try (repeat constructor; reflexivity); vm_compute; reflexivity. Qed.
(* the bound 127 of the double-bit clause is tight *)
Example C20_double_bit_127_undetected : crc_bits (double_bit 0 126 0) = 0.
Proof. exact double_bit_127_undetected. Qed.

Print Assumptions C20_table_equals_bitwise.
Print Assumptions C20_no_index_error.
Print Assumptions C20_bitwise_is_bit_serial.
Print Assumptions C20_seven_bits.
Print Assumptions C20_linear.
Print Assumptions C20_apply_error_flips.
Print Assumptions C20_single_bit.
Print Assumptions C20_double_bit.
Print Assumptions C20_burst7.
