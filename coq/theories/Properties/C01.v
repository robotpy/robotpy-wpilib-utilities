(* C01 -- StateMachine runs regular states only while engage() keeps being called.

   Model: SM.Model (magicbot/state_machine.py, execute() in phases).  [body] is
   arbitrary user code: the actions of the k-th state-function invocation may
   depend on anything (k, the state, the arguments).  [fuel] bounds the nesting
   of next_state_now(); running out of it is the event EvErr (RecursionError),
   excluded like every other exception by [ok].  [ok t] also says that the trace
   stays inside the usage contract K of DESIGN.md 6.1 (no in-state action while
   the machine is not executing, no explicit transition into the default state,
   clock readings do not go backwards).
   Statements only: each theorem is an instance of a lemma of SM/; the examples
   at the end are closed by evaluation, through the boolean checkers of SM/Check.v. *)
From Coq Require Import ZArith List Bool.
From RV Require Import SM.Model SM.Basics SM.Engage SM.Invariants SM.Stop SM.Auto SM.Check SM.Examples.
Import ListNotations.
Open Scope Z_scope.

Section C01.
Variable sh : shape.
Variable body : nat -> name -> Z -> Z -> bool -> list action.

(* The request flag seen by an iteration is true exactly when engage() was called
   since the previous iteration: over any history of engage/done/on_disable/
   execute/duration writes, it equals the reference [requested]. *)
Theorem C01_request_iff_engage_since_last_iteration : forall fuel h m,
  sh_auto sh = false -> forallb plain_op h = true ->
  should (fst (run sh body (S fuel) m h)) = requested h (should m).
Proof. exact (should_iff_engaged_since sh body). Qed.

(* In ANY iteration (any machine state whatsoever, any nesting of
   next_state_now) that starts without the request, every state function that is
   called is the default state or a must_finish state. *)
Theorem C01_regular_needs_engage : forall fuel m now, should m = false ->
  forall s tm stm i e, In (EvCall s tm stm i e) (snd (exec sh body fuel m now)) ->
  is_regular sh s = false.
Proof. exact (fun fuel m now H => calls_in _ _ (exec_quiet sh body fuel m now H)). Qed.

(* Without the request the machine stops as soon as it is not inside a
   must_finish state: if no non-default state function ran in the iteration, the
   machine is stopped afterwards, and if it was executing, done() was invoked.
   (The premise that no regular state ran already excludes a requested
   iteration; the proof does not use [should m = false].) *)
Theorem C01_stops_without_engage : forall fuel m now, wf_shape sh ->
  Inv sh m -> should m = false ->
  ok (snd (exec sh body (S fuel) m now)) ->
  only_default_calls sh (snd (exec sh body (S fuel) m now)) ->
  engaged (fst (exec sh body (S fuel) m now)) = false /\
  (engaged m = true -> In EvDone (snd (exec sh body (S fuel) m now))).
Proof. exact (fun fuel m now Hwf HI _ => exec_stops sh body Hwf (S fuel) m now HI). Qed.

(* ... and then nothing except the default state runs until engage() is called
   again: for EVERY continuation of the history without engage().  (Stated
   again as C04_nothing_until_engage.) *)
Theorem C01_idle_until_engage : forall fuel h m, wf_shape sh ->
  Idle sh m -> forallb no_engage_op h = true ->
  ok (trace_of (snd (run sh body (S fuel) m h))) ->
  Idle sh (fst (run sh body (S fuel) m h)) /\
  forall s tm stm i e, In (EvCall s tm stm i e) (trace_of (snd (run sh body (S fuel) m h))) ->
    is_default sh s = true /\ e = false.
Proof.
  exact (fun fuel h m Hwf HI Hp Hok =>
    let H := idle_until_engage sh body Hwf (S fuel) h m HI Hp Hok in
    conj (proj1 H) (calls_in _ _ (proj2 H))).
Qed.

(* When engage() was called and the machine has a state to run, exactly one
   state function runs in the iteration, plus one for each next_state_now(). *)
Theorem C01_exactly_one : forall fuel m now,
  sh_auto sh = false -> should m = true -> cur m <> None ->
  ok (snd (exec sh body fuel m now)) ->
  ncalls (snd (exec sh body fuel m now)) = S (nnow (snd (exec sh body fuel m now))).
Proof. exact (exec_one sh body). Qed.

(* Every state reachable by any history inside the contract satisfies the
   invariant the theorems above assume. *)
Theorem C01_invariant_reachable : forall fuel h m, wf_shape sh -> Inv sh m ->
  ok (trace_of (snd (run sh body fuel m h))) -> Inv sh (fst (run sh body fuel m h)).
Proof. exact (fun fuel h m Hwf HI Hok => proj1 (run_inv sh body Hwf fuel h m HI Hok)). Qed.
End C01.

(* Non-vacuity: a 4-state machine (timed first state, must_finish timed state,
   plain state, default state) and a 20-operation history with next_state_now,
   next_state, done(), a duration write, gaps without engage(): the history is
   inside the contract, the shape is well-formed, the initial machine satisfies
   Inv and is idle, and iterations with and without the request both occur. *)
Example C01_nv_contract : wf_shape (ex_shape false) /\ Inv (ex_shape false) ex_init
  /\ Idle (ex_shape false) ex_init /\ ok ex_trace.
Proof.
  split; [apply wf_shapeb_sound; vm_compute; reflexivity|].
  split; [apply Inv_init|]. split; [split; [apply Inv_init | split; reflexivity]|].
  apply okb_ok. vm_compute. reflexivity.
Qed.
Example C01_nv_counts :
  (* the 3rd iteration: requested, one next_state_now: two state functions ran *)
  let m := fst (run (ex_shape false) ex_body 8 ex_init (firstn 4 ex_hist)) in
  should m = true /\ cur m <> None /\
  ncalls (snd (exec (ex_shape false) ex_body 8 m 12)) = 2%nat /\ nnow (snd (exec (ex_shape false) ex_body 8 m 12)) = 1%nat.
Proof. vm_compute. repeat split; discriminate. Qed.
Example C01_nv_must_finish_runs_unrequested :
  (* Execute 21 without engage(): the must_finish state b still runs, then Execute 22 stops through done() *)
  nth 9 (snd (run (ex_shape false) ex_body 8 ex_init ex_hist)) [] =
    [EvEnter 1%nat; EvBk 1%nat 19 21; EvCall 1%nat 10 2 true true] /\
  nth 10 (snd (run (ex_shape false) ex_body 8 ex_init ex_hist)) [] =
    [EvDone; EvFallback 3%nat; EvBk 3%nat 21 274877906901; EvCall 3%nat 11 1 true false].
Proof. vm_compute. split; reflexivity. Qed.

Print Assumptions C01_request_iff_engage_since_last_iteration.
Print Assumptions C01_regular_needs_engage.
Print Assumptions C01_stops_without_engage.
Print Assumptions C01_idle_until_engage.
Print Assumptions C01_exactly_one.
Print Assumptions C01_invariant_reachable.
