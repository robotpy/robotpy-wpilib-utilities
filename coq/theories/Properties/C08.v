(* C08 -- variable injection delivers exactly the named robot object or fails
   at startup.  Section C08 holds the statements; each proof instantiates a
   lemma of Inject.Proofs or an earlier statement (for a component or a mode:
   the lemma about any target, with [comp_in_targets] / [mode_in_targets]; for
   C08_robot_injectables_by_name, C08_robot_attr_by_name_ctor_delivered and
   C08_robot_attr_by_name_serves: the lemma about an [injectable_attr] entry,
   after rewriting with [injectable_by_name]) or, where the driver station or
   the defaults are the subject, holds by the definition of [startup_in] /
   [startup_dflt].  After the section: concrete robots that meet the
   hypotheses.  What they start as (or fail with), and every hypothesis that
   is an equation, holds by evaluation; NoDup and [all_types] by their
   boolean versions ([NoDup_by_computation], [all_types_by_computation]);
   membership, [request_fails], [ctor_fault] and the hypothesis of
   C08_names_treated_alike, which quantify, by the few steps that reach
   closed terms.

   Vocabulary.  What models the code stands in Inject/Model.v; what is defined
   to state these theorems ([pick], [targets], [all_types], [request_fails],
   the faults, [dir_entry], [injectable_attr], [kind_injectable] ...) stands
   together near the head of Inject/Proofs.v, the two counter-models
   [startup_tolerant] and [create_component_lenient] further down there.
   [startup subclass r]    MagicRobot._create_components on the robot definition
                           r: Ok s (s records the created components with
                           their constructor kwargs and every __dict__ update)
                           or Err EInject (magicbot.inject.MagicInjectError) /
                           Err EType (TypeError);
   [trace_of r s]          constructor calls, __dict__ updates, setup() calls in
                           the order they happen;
   [attr_at r evs t n]     getattr(t, n) after the events evs;
   [components r]          the robot annotations that become components (public,
                           not a robot attribute yet), in declaration order;
   [robot_injectables r]   public non-method non-property robot attributes
                           (class level and createObjects level alike);
   [dir_entry r n]         the entry of dir(robot) called n: name, value and kind
                           KPlain (not callable) | KCallable (callable, not a
                           bound method: object with __call__, functools.partial,
                           class, function on the instance / staticmethod,
                           builtin) | KMethod (inspect.ismethod) | KDescriptor
                           (property / tunable on the class);
   [injectable_attr a]     a is public, not "logger", KPlain or KCallable;
   [all_injectables r]     robot_injectables plus ALL components;
   [injectables_with r b]  robot_injectables plus the components b;
   [pick inj c n]          inj[n] if that is not None, else inj["<c>_<n>"];
   [comp_has d n]          hasattr(component, n) when _setup_vars looks at it
                           ([mode_has], [t_has tg]: the same for a mode / any
                           target): "logger", a class-level value, one set in
                           __init__ (PConst, PParam), or a descriptor / marker
                           the framework has bound by then -- magicbot.tunable
                           after setup_tunables, will_reset_to (PBound v: it
                           reads v);
   [subclass]              CPython's isinstance, an input (Section variable):
                           the theorems hold for every such relation;
   [env]                   what wpilib.DriverStation reports while the robot
                           program starts: fms_attached (isFMSAttached()),
                           ds_enabled (isEnabled());
   [startup_in subclass e r]  _create_components run in that environment;
   [targets r]             everything that receives attribute injection: the
                           components, then the autonomous modes;
   [request_fails subclass inj c n h]  the annotation h is not a class, or inj
                           holds nothing under n and "<c>_<n>", or an object
                           that is not an instance of it. *)
From Coq Require Import List String Ascii Bool Arith Permutation.
From RV Require Import Inject.Model Inject.Proofs.
Import ListNotations.
Open Scope string_scope.
Open Scope list_scope.

Section C08.
Variable subclass : cls -> cls -> bool.

(* Every public annotated attribute (annotations merged over the MRO) of a
   component that has no value yet holds, at the first setup() and at the end
   of startup, the very object the robot stores under the same name -- robot
   attributes and all components alike -- or, if there is none, the one stored
   under "<component>_<attribute>"; and that object is an instance of the
   (origin of the) annotated type. *)
Theorem C08_attr_exact : forall r s, startup subclass r = Ok s ->
  forall c d n h, In (c, d) (components r) -> In (n, h) (k_hints (c_class d)) ->
    is_private n = false -> comp_has d n = false ->
    exists T o, hint_type h = Some T /\
      pick (all_injectables r) c n = Some o /\
      subclass (ocls o) T = true /\
      attr_at r (before_first_setup (trace_of r s)) (TComp c) n = Is (Some o) /\
      attr_at r (trace_of r s) (TComp c) n = Is (Some o).
Proof.
  intros r s HS c d n h HI. exact (attr_exact subclass r s HS _ n h (comp_in_targets r c d HI)).
Qed.

(* the same for autonomous modes *)
Theorem C08_attr_exact_modes : forall r s, startup subclass r = Ok s ->
  forall md n h, In md (r_modes r) -> In (n, h) (m_hints md) ->
    is_private n = false -> mode_has md n = false ->
    exists T o, hint_type h = Some T /\
      pick (all_injectables r) (m_name md) n = Some o /\
      subclass (ocls o) T = true /\
      attr_at r (before_first_setup (trace_of r s)) (TMode (m_name md)) n = Is (Some o) /\
      attr_at r (trace_of r s) (TMode (m_name md)) n = Is (Some o).
Proof.
  intros r s HS md n h HI. exact (attr_exact subclass r s HS _ n h (mode_in_targets r md HI)).
Qed.

(* what [all_injectables] contains: every component by its name, whatever its
   position in the declaration order, else the robot attribute *)
Theorem C08_injectables_are_attrs_and_all_components : forall r k,
  NoDup (map fst (r_hints r)) ->
  get (all_injectables r) k =
  match assoc k (components r) with
  | Some d => Some (comp_obj d)
  | None => get (robot_injectables r) k
  end.
Proof. exact all_injectables_get. Qed.

(* no setup() runs before the last injection *)
Theorem C08_inject_before_setup : forall r s t upd,
  In (EvInject t upd) (trace_of r s) ->
  In (EvInject t upd) (before_first_setup (trace_of r s)).
Proof. exact inject_before_setup. Qed.

(* Declaration order: two robot definitions that differ only in the order of
   the robot class's annotations (a dict: distinct names) and that both start
   write the same updates into the same targets ... *)
Theorem C08_order_independent : forall r r' s s',
  same_but_order r r' -> NoDup (map fst (r_hints r)) ->
  startup subclass r = Ok s -> startup subclass r' = Ok s' ->
  Permutation (st_updates s) (st_updates s').
Proof. exact (order_independent subclass). Qed.

(* ... so every injected attribute reads the same ... *)
Theorem C08_order_independent_attr : forall r r' s s',
  same_but_order r r' -> NoDup (map fst (r_hints r)) ->
  startup subclass r = Ok s -> startup subclass r' = Ok s' ->
  forall tg n h, In tg (targets r) -> In (n, h) (t_hints tg) ->
    is_private n = false -> t_has tg n = false ->
    In tg (targets r') /\
    attr_at r (trace_of r s) (t_ref tg) n = attr_at r' (trace_of r' s') (t_ref tg) n.
Proof. exact (order_independent_attr subclass). Qed.

(* ... and when no component takes constructor parameters, whether startup
   succeeds does not depend on the order either.  (With constructor
   parameters it does: they see earlier-declared components only, C08_ctor.) *)
Theorem C08_order_independent_success : forall r r' s,
  same_but_order r r' -> NoDup (map fst (r_hints r)) ->
  (forall c d, In (c, d) (components r) -> k_init_hints (c_class d) = []) ->
  startup subclass r = Ok s -> exists s', startup subclass r' = Ok s'.
Proof. exact (order_independent_success subclass). Qed.

(* Untouched: the update written into a target has exactly the names of its
   public, not-yet-set annotations, in annotation order ... *)
Theorem C08_untouched : forall r s, startup subclass r = Ok s ->
  Forall2 (fun tg u => fst u = t_ref tg /\
             map fst (snd u) = map fst (requested (t_has tg) (t_hints tg)))
          (targets r) (st_updates s).
Proof. exact (updates_names subclass). Qed.

(* ... so an underscore attribute keeps what the fresh instance had ... *)
Theorem C08_untouched_private : forall r s t n,
  startup subclass r = Ok s -> is_private n = true ->
  attr_at r (trace_of r s) t n = initial_attr r (trace_of r s) t n.
Proof. exact (private_untouched subclass). Qed.

(* ... and so does an attribute that already has a value (preset on the class,
   set in __init__, even to None). *)
Theorem C08_untouched_preset : forall r s tg n,
  startup subclass r = Ok s -> NoDup (map t_ref (targets r)) ->
  In tg (targets r) -> t_has tg n = true ->
  attr_at r (trace_of r s) (t_ref tg) n = initial_attr r (trace_of r s) (t_ref tg) n.
Proof. exact (preset_untouched subclass). Qed.

(* Constructor injection: the components are created in declaration order and
   the k-th one receives, for every __init__ parameter (none may be private),
   the object picked from the robot attributes and the components declared
   BEFORE it, of the annotated type. *)
Theorem C08_ctor : forall r s, startup subclass r = Ok s ->
  map (fun c => (cr_name c, cr_def c)) (st_comps s) = components r /\
  forall before c d after, components r = before ++ (c, d) :: after ->
    exists kw,
      nth_error (st_comps s) (List.length before)
        = Some {| cr_name := c; cr_def := d; cr_kwargs := kw |} /\
      Forall2 (ctor_arg_ok subclass (injectables_with r before) c)
              (k_init_hints (c_class d)) kw.
Proof. exact (ctor_exact subclass). Qed.

(* ... and nothing else can reach a constructor *)
Theorem C08_ctor_sources : forall r before c n o,
  pick (injectables_with r before) c n = Some o ->
  exists k, (k = n \/ k = prefixed c n) /\
    (get (robot_injectables r) k = Some o \/ exists d, In (k, d) before /\ o = comp_obj d).
Proof. exact ctor_sources. Qed.

(* Startup fails iff some requested injection cannot be made:
   robot_fault  a public unset robot annotation is not a class;
   ctor_fault   an __init__ parameter is private, or its annotation is not a
                class, or no object is stored under either name among the robot
                attributes and earlier components, or it is not an instance;
   attr_fault   the same for a public unset annotated attribute of a component
                or mode, against robot attributes and all components. *)
Theorem C08_fail_iff : forall r,
  (exists e, startup subclass r = Err e) <->
  robot_fault r \/ ctor_fault subclass r \/ attr_fault subclass r.
Proof. exact (fail_iff subclass). Qed.

(* When every annotation is a class or an alias of a class, the error is the
   injection error, and it is raised iff an object is missing under both
   names or is not an instance of the (origin of the) annotated type (or an
   __init__ parameter is private). *)
Theorem C08_fail_inject_iff : forall r, all_types r ->
  (startup subclass r = Err EInject <-> ctor_fault subclass r \/ attr_fault subclass r).
Proof. exact (fail_inject_iff subclass). Qed.

Theorem C08_error_class : forall r e, all_types r -> startup subclass r = Err e -> e = EInject.
Proof. exact (error_class subclass). Qed.

(* Falsy values are values: an injectable with bool(o) == False stored under
   the attribute's own name is what the component gets. *)
Theorem C08_falsy_injects : forall r s, startup subclass r = Ok s ->
  forall c d n h o, In (c, d) (components r) -> In (n, h) (k_hints (c_class d)) ->
    is_private n = false -> comp_has d n = false ->
    get (all_injectables r) n = Some o -> otruthy o = false ->
    attr_at r (before_first_setup (trace_of r s)) (TComp c) n = Is (Some o) /\
    attr_at r (trace_of r s) (TComp c) n = Is (Some o).
Proof.
  intros r s HS c d n h o HI Hh HP HH Hg _.
  exact (own_name_delivered subclass r s HS _ n h o (comp_in_targets r c d HI) Hh HP HH Hg).
Qed.

(* The code's reading of "if there is none": a robot attribute whose value is
   None counts as not there (dict.get(n) is None). *)
Theorem C08_none_is_absent : forall inj c n,
  get inj n = None -> pick inj c n = get inj (prefixed c n).
Proof. exact none_is_absent. Qed.

(* What the robot's own attributes contribute (MagicRobot._collect_injectables,
   dir() has distinct names): the value stored under n -- whether or not it is
   callable -- unless n is private, "logger", a property/tunable of the class
   or a BOUND METHOD; nothing else is filtered, nothing is added. *)
Theorem C08_robot_injectables_exact : forall r n,
  NoDup (map ra_name (r_dir r)) ->
  get (robot_injectables r) n =
  match dir_entry r n with
  | Some a => if injectable_attr a then ra_value a else None
  | None => None
  end.
Proof. exact robot_injectables_exact. Qed.

(* Hence: when the robot stores an object o under the public name n (any object
   that is not a bound method: callable objects, partials and classes included),
   every public unset attribute n of every component holds o -- that very
   object -- at the first setup() and at the end, and o is an instance of the
   annotated type ... *)
Theorem C08_robot_attr_delivered : forall r s, startup subclass r = Ok s ->
  NoDup (map ra_name (r_dir r)) -> NoDup (map fst (r_hints r)) ->
  forall c d n h a o, In (c, d) (components r) -> In (n, h) (k_hints (c_class d)) ->
    is_private n = false -> comp_has d n = false ->
    dir_entry r n = Some a -> injectable_attr a = true -> ra_value a = Some o ->
    attr_at r (before_first_setup (trace_of r s)) (TComp c) n = Is (Some o) /\
    attr_at r (trace_of r s) (TComp c) n = Is (Some o) /\
    exists T, hint_type h = Some T /\ subclass (ocls o) T = true.
Proof.
  intros r s HS ND _ c d n h a o HI Hh _.
  exact (robot_attr_delivered subclass r s HS ND _ n h a o (comp_in_targets r c d HI) Hh).
Qed.

(* ... the same for autonomous modes ... *)
Theorem C08_robot_attr_delivered_modes : forall r s, startup subclass r = Ok s ->
  NoDup (map ra_name (r_dir r)) -> NoDup (map fst (r_hints r)) ->
  forall md n h a o, In md (r_modes r) -> In (n, h) (m_hints md) ->
    is_private n = false -> mode_has md n = false ->
    dir_entry r n = Some a -> injectable_attr a = true -> ra_value a = Some o ->
    attr_at r (before_first_setup (trace_of r s)) (TMode (m_name md)) n = Is (Some o) /\
    attr_at r (trace_of r s) (TMode (m_name md)) n = Is (Some o) /\
    exists T, hint_type h = Some T /\ subclass (ocls o) T = true.
Proof.
  intros r s HS ND _ md n h a o HI Hh _.
  exact (robot_attr_delivered subclass r s HS ND _ n h a o (mode_in_targets r md HI) Hh).
Qed.

(* ... and for constructor parameters: the component's __init__ is called with
   p = o. *)
Theorem C08_robot_attr_ctor_delivered : forall r s, startup subclass r = Ok s ->
  NoDup (map ra_name (r_dir r)) -> NoDup (map fst (r_hints r)) ->
  forall before c d after p h a o, components r = before ++ (c, d) :: after ->
    In (p, h) (k_init_hints (c_class d)) ->
    dir_entry r p = Some a -> injectable_attr a = true -> ra_value a = Some o ->
    exists kw,
      nth_error (st_comps s) (List.length before)
        = Some {| cr_name := c; cr_def := d; cr_kwargs := kw |} /\
      In (p, o) kw /\ exists T, hint_type h = Some T /\ subclass (ocls o) T = true.
Proof. intros r s HS ND _. exact (robot_attr_ctor_delivered subclass r s HS ND). Qed.

(* A request for the name of such a robot attribute whose value is an instance
   of the annotated type is never the reason startup fails (it is none of the
   faults of C08_fail_iff), whatever components [cs] exist at that moment:
   "startup fails only if no such object exists or it is mistyped". *)
Theorem C08_robot_attr_serves : forall r cs c n h T a o,
  NoDup (map ra_name (r_dir r)) -> NoDup (map fst cs) ->
  (forall k d, In (k, d) cs -> In (k, d) (components r)) ->
  dir_entry r n = Some a -> injectable_attr a = true -> ra_value a = Some o ->
  hint_type h = Some T -> subclass (ocls o) T = true ->
  ~ request_fails subclass (injectables_with r cs) c n h.
Proof. intros r cs c n h T a o ND _. exact (robot_attr_serves subclass r cs c n h T a o ND). Qed.

(* Whether a stored object is callable changes nothing at all: the robot with
   every KCallable attribute re-declared KPlain starts (or fails) identically. *)
Theorem C08_callable_irrelevant : forall r,
  startup subclass (robot_forget_callable r) = startup subclass r.
Proof. exact (callable_irrelevant subclass). Qed.

(* ---------------------------------------------------------------------- *)
(* What a robot attribute is CALLED decides nothing, except a leading        *)
(* underscore and being exactly "logger".                                    *)
(* ---------------------------------------------------------------------- *)

(* The exclusion test of _collect_injectables, [n in self._exclude_from_injection]
   with the list ["logger"], holds for that one name and no other -- not for
   its substrings (log, g, er, logg ...), not for names containing it, not for
   case variants. *)
Theorem C08_excluded_iff_logger : forall n, excluded n = true <-> n = "logger".
Proof. exact excluded_iff_logger. Qed.

(* So for ANY public name n other than "logger" (dir() has distinct names) the
   robot's injectable under n is the value of the dir() entry n, unless that is
   a property/tunable or a bound method. *)
Theorem C08_robot_injectables_by_name : forall r n a,
  NoDup (map ra_name (r_dir r)) ->
  dir_entry r n = Some a -> is_private n = false -> n <> "logger" ->
  get (robot_injectables r) n = if kind_injectable (ra_kind a) then ra_value a else None.
Proof.
  intros r n a ND HE HP HN. now rewrite (robot_injectables_exact r n ND), HE, (injectable_by_name r n a).
Qed.

(* Names are treated alike: renaming the robot's attributes by any f that
   preserves "starts with an underscore" and "is exactly logger" renames the
   collected injectables and changes nothing else. *)
Theorem C08_names_treated_alike : forall f dir,
  (forall a, In a dir -> is_private (f (ra_name a)) = is_private (ra_name a) /\
                         excluded (f (ra_name a)) = excluded (ra_name a)) ->
  collect_injectables (map (rename_attr f) dir) =
  map (fun kv => (f (fst kv), snd kv)) (collect_injectables dir).
Proof. exact collect_rename. Qed.

(* Delivery with no hypothesis on the name beyond "public": when the robot
   stores o under n (not as a property/tunable or bound method), every public
   unset attribute n of every component is o at the first setup() and at the
   end ([comp_has d n = false] already rules out n = "logger", which the
   framework assigns itself) ... *)
Theorem C08_robot_attr_by_name_delivered : forall r s, startup subclass r = Ok s ->
  NoDup (map ra_name (r_dir r)) -> NoDup (map fst (r_hints r)) ->
  forall c d n h a o, In (c, d) (components r) -> In (n, h) (k_hints (c_class d)) ->
    is_private n = false -> comp_has d n = false ->
    dir_entry r n = Some a -> kind_injectable (ra_kind a) = true -> ra_value a = Some o ->
    attr_at r (before_first_setup (trace_of r s)) (TComp c) n = Is (Some o) /\
    attr_at r (trace_of r s) (TComp c) n = Is (Some o) /\
    exists T, hint_type h = Some T /\ subclass (ocls o) T = true.
Proof. intros r s HS ND _. exact (robot_attr_by_name_delivered_comp subclass r s HS ND). Qed.

(* ... of every autonomous mode ... *)
Theorem C08_robot_attr_by_name_delivered_modes : forall r s, startup subclass r = Ok s ->
  NoDup (map ra_name (r_dir r)) -> NoDup (map fst (r_hints r)) ->
  forall md n h a o, In md (r_modes r) -> In (n, h) (m_hints md) ->
    is_private n = false -> mode_has md n = false ->
    dir_entry r n = Some a -> kind_injectable (ra_kind a) = true -> ra_value a = Some o ->
    attr_at r (before_first_setup (trace_of r s)) (TMode (m_name md)) n = Is (Some o) /\
    attr_at r (trace_of r s) (TMode (m_name md)) n = Is (Some o) /\
    exists T, hint_type h = Some T /\ subclass (ocls o) T = true.
Proof.
  intros r s HS ND _ md n h a o HI.
  exact (robot_attr_by_name_delivered subclass r s HS ND _ n h a o (mode_in_targets r md HI)).
Qed.

(* ... and every constructor parameter p other than "logger" is passed o. *)
Theorem C08_robot_attr_by_name_ctor_delivered : forall r s, startup subclass r = Ok s ->
  NoDup (map ra_name (r_dir r)) -> NoDup (map fst (r_hints r)) ->
  forall before c d after p h a o, components r = before ++ (c, d) :: after ->
    In (p, h) (k_init_hints (c_class d)) ->
    is_private p = false -> p <> "logger" ->
    dir_entry r p = Some a -> kind_injectable (ra_kind a) = true -> ra_value a = Some o ->
    exists kw,
      nth_error (st_comps s) (List.length before)
        = Some {| cr_name := c; cr_def := d; cr_kwargs := kw |} /\
      In (p, o) kw /\ exists T, hint_type h = Some T /\ subclass (ocls o) T = true.
Proof.
  intros r s HS ND _ before c d after p h a o E Hh HP HN HE HK.
  apply (robot_attr_ctor_delivered subclass r s HS ND before c d after p h a o E Hh HE).
  now rewrite (injectable_by_name r p a).
Qed.

(* The object under the plain name wins over the one under "<c>_<n>" whatever
   the name looks like, whichever components [cs] exist at that moment ... *)
Theorem C08_plain_name_wins : forall r cs c n a o,
  NoDup (map ra_name (r_dir r)) -> NoDup (map fst cs) ->
  (forall k d, In (k, d) cs -> In (k, d) (components r)) ->
  is_private n = false -> n <> "logger" ->
  dir_entry r n = Some a -> kind_injectable (ra_kind a) = true -> ra_value a = Some o ->
  pick (injectables_with r cs) c n = Some o.
Proof. intros r cs c n a o ND _. exact (plain_name_wins r cs c n a o ND). Qed.

(* ... and a well-typed one is never the reason startup fails. *)
Theorem C08_robot_attr_by_name_serves : forall r cs c n h T a o,
  NoDup (map ra_name (r_dir r)) -> NoDup (map fst cs) ->
  (forall k d, In (k, d) cs -> In (k, d) (components r)) ->
  is_private n = false -> n <> "logger" ->
  dir_entry r n = Some a -> kind_injectable (ra_kind a) = true -> ra_value a = Some o ->
  hint_type h = Some T -> subclass (ocls o) T = true ->
  ~ request_fails subclass (injectables_with r cs) c n h.
Proof.
  intros r cs c n h T a o ND _ Hsub HP HN HE HK.
  apply (robot_attr_serves subclass r cs c n h T a o ND Hsub HE). now rewrite (injectable_by_name r n a).
Qed.

(* ---------------------------------------------------------------------- *)
(* The state of the driver station while the robot program starts -- FMS     *)
(* attached or not, robot enabled or not: [env] -- decides nothing, for       *)
(* components and autonomous modes alike.  [startup_in subclass e r] is       *)
(* _create_components run while wpilib.DriverStation reports e.               *)
(* ---------------------------------------------------------------------- *)

(* Which error is raised, or which components are created with which
   constructor arguments and what is written into every component and mode:
   the same in any two environments. *)
Theorem C08_env_irrelevant : forall e e' r,
  startup_in subclass e r = startup_in subclass e' r.
Proof. exact (startup_env_irrelevant subclass). Qed.

(* ... hence the order of events and every attribute of every component and
   mode at each setup() call and after start-up. *)
Theorem C08_env_observation_irrelevant : forall e e' r s s',
  startup_in subclass e r = Ok s -> startup_in subclass e' r = Ok s' ->
  s = s' /\ trace_of r s = trace_of r s' /\ observe r s = observe r s'.
Proof.
  intros e e' r s s' H H'. unfold startup_in in *. rewrite H in H'. inversion H'. auto.
Qed.

(* In every environment start-up fails iff some request cannot be served. *)
Theorem C08_env_fail_iff : forall e r,
  (exists err, startup_in subclass e r = Err err) <->
  robot_fault r \/ ctor_fault subclass r \/ attr_fault subclass r.
Proof. intros e. exact (fail_iff subclass). Qed.

(* "If no such object exists or it is not an instance of the annotated type,
   startup fails with an injection error instead of running with a missing or
   mistyped dependency" -- for an AUTONOMOUS MODE, with or without the FMS: a
   public unset annotated attribute of a mode for which the robot attributes
   and components hold nothing under either name, or an object that is not an
   instance (or whose annotation is not a class), makes start-up fail; with
   class annotations only, with the injection error ... *)
Theorem C08_env_mode_fault_fails : forall e r md n h,
  In md (r_modes r) -> In (n, h) (m_hints md) -> is_private n = false -> mode_has md n = false ->
  request_fails subclass (all_injectables r) (m_name md) n h ->
  exists err, startup_in subclass e r = Err err /\ (all_types r -> err = EInject).
Proof. exact (mode_fault_fails_in subclass). Qed.

(* ... for a component attribute ... *)
Theorem C08_env_comp_fault_fails : forall e r c d n h,
  In (c, d) (components r) -> In (n, h) (k_hints (c_class d)) -> is_private n = false ->
  comp_has d n = false -> request_fails subclass (all_injectables r) c n h ->
  exists err, startup_in subclass e r = Err err /\ (all_types r -> err = EInject).
Proof.
  intros e r c d n h HI.
  exact (target_fault_fails_in subclass e r (comp_target c d) n h (comp_in_targets r c d HI)).
Qed.

(* ... and for a constructor parameter. *)
Theorem C08_env_ctor_fault_fails : forall e r, ctor_fault subclass r ->
  exists err, startup_in subclass e r = Err err /\ (all_types r -> err = EInject).
Proof. intros e r HF. exact (fault_fails subclass r (or_intror (or_introl HF))). Qed.

(* Conversely a start-up that succeeded, in whatever environment, left no
   component and no mode ([targets r]: components, then modes) with a missing
   or mistyped dependency. *)
Theorem C08_env_attr_exact : forall e r s, startup_in subclass e r = Ok s ->
  forall tg n h, In tg (targets r) -> In (n, h) (t_hints tg) ->
    is_private n = false -> t_has tg n = false ->
    exists T o, hint_type h = Some T /\
      pick (all_injectables r) (tname (t_ref tg)) n = Some o /\
      subclass (ocls o) T = true /\
      attr_at r (before_first_setup (trace_of r s)) (t_ref tg) n = Is (Some o) /\
      attr_at r (trace_of r s) (t_ref tg) n = Is (Some o).
Proof. intros e. exact (attr_exact subclass). Qed.

Theorem C08_env_attr_exact_modes : forall e r s, startup_in subclass e r = Ok s ->
  forall md n h, In md (r_modes r) -> In (n, h) (m_hints md) ->
    is_private n = false -> mode_has md n = false ->
    exists T o, hint_type h = Some T /\
      pick (all_injectables r) (m_name md) n = Some o /\
      subclass (ocls o) T = true /\
      attr_at r (before_first_setup (trace_of r s)) (TMode (m_name md)) n = Is (Some o) /\
      attr_at r (trace_of r s) (TMode (m_name md)) n = Is (Some o).
Proof. intros e. exact C08_attr_exact_modes. Qed.

(* ---------------------------------------------------------------------- *)
(* Attributes that already have a value -- [t_has tg n = true]: a class-level *)
(* value, one set in __init__, or a descriptor / marker the framework has     *)
(* bound when _setup_vars looks (`gain: float = magicbot.tunable(0.25)`,       *)
(* will_reset_to; [PBound] in a classdef / modedef) -- are left untouched:     *)
(* C08_untouched_preset says they read what they read before; C08_fail_iff     *)
(* that they are never the reason start-up fails (attr_fault needs t_has =     *)
(* false); and:                                                              *)
(* ---------------------------------------------------------------------- *)

(* nothing is ever written into the target under such a name ... *)
Theorem C08_set_attr_never_written : forall r s tg n upd,
  startup subclass r = Ok s -> NoDup (map t_ref (targets r)) ->
  In tg (targets r) -> t_has tg n = true ->
  In (EvInject (t_ref tg) upd) (trace_of r s) -> ~ In n (map fst upd).
Proof. exact (set_attr_never_written subclass). Qed.

(* ... and what its annotation says (a type the robot could or could not serve,
   a non-class, no annotation) is never looked at: _setup_vars of two targets
   with the same name and the same public UNSET annotations gives the same
   update or the same error.  (hasattr enters only through which annotations
   are unset: that it agrees on every name is not used.) *)
Theorem C08_set_attr_annotation_irrelevant : forall tg tg' inj,
  t_ref tg = t_ref tg' -> (forall n, t_has tg n = t_has tg' n) ->
  requested (t_has tg) (t_hints tg) = requested (t_has tg') (t_hints tg') ->
  setup_vars subclass tg inj = setup_vars subclass tg' inj.
Proof. intros tg tg' inj ER _. exact (set_attr_annotation_irrelevant subclass tg tg' inj ER). Qed.

(* ---------------------------------------------------------------------- *)
(* Several components / autonomous modes may be instances of ONE class (same  *)
(* k_cls, same annotations) whose instances differ in what they already have: *)
(* every target is judged on its own.  C08_attr_exact, C08_untouched and       *)
(* C08_untouched_preset already speak about each component's own [comp_has];   *)
(* explicitly:                                                               *)
(* ---------------------------------------------------------------------- *)

(* the update written into a target is _setup_vars of THAT target -- its own
   name, annotations and hasattr -- against the robot's complete injectables *)
Theorem C08_each_target_on_its_own : forall r s, startup subclass r = Ok s ->
  Forall2 (fun tg u => fst u = t_ref tg /\ setup_vars subclass tg (all_injectables r) = Ok (snd u))
          (targets r) (st_updates s).
Proof. intros r s HS. apply (startup_ok subclass r s HS). Qed.

(* and a target whose own _setup_vars fails stops start-up *)
Theorem C08_target_failure_on_its_own : forall r tg e,
  In tg (targets r) -> setup_vars subclass tg (all_injectables r) = Err e ->
  exists e', startup subclass r = Err e'.
Proof. exact (target_failure_on_its_own subclass). Qed.

(* ---------------------------------------------------------------------- *)
(* Default values of __init__ parameters (`gain: float = 1.0`, `encoder:       *)
(* Encoder = None`; [init_defaults], per component [dd]) are not an input:     *)
(* every annotated parameter is requested, found under its name or             *)
(* "<component>_<name>", type-checked -- a default is never used instead.      *)
(* [startup_dflt subclass dd e r]: start-up when the component classes         *)
(* declare the defaults dd, in the environment e.                              *)
(* ---------------------------------------------------------------------- *)

Theorem C08_ctor_defaults_irrelevant : forall dflt dflt' m d inj,
  create_component_dflt subclass dflt m d inj = create_component_dflt subclass dflt' m d inj.
Proof. reflexivity. Qed.

Theorem C08_startup_defaults_irrelevant : forall dd dd' e e' r,
  startup_dflt subclass dd e r = startup_dflt subclass dd' e' r.
Proof. reflexivity. Qed.

(* whatever the defaults, a started robot passed every constructor parameter
   the object picked from the robot attributes and the earlier components, an
   instance of the annotated type (C08_ctor) ... *)
Theorem C08_ctor_with_defaults : forall dd e r s, startup_dflt subclass dd e r = Ok s ->
  map (fun c => (cr_name c, cr_def c)) (st_comps s) = components r /\
  forall before c d after, components r = before ++ (c, d) :: after ->
    exists kw,
      nth_error (st_comps s) (List.length before)
        = Some {| cr_name := c; cr_def := d; cr_kwargs := kw |} /\
      Forall2 (ctor_arg_ok subclass (injectables_with r before) c)
              (k_init_hints (c_class d)) kw.
Proof. intros dd e. exact (ctor_exact subclass). Qed.

(* ... and a parameter that is private, not annotated with a class, absent
   under both names or mistyped stops start-up; with class annotations only,
   with the injection error. *)
Theorem C08_ctor_fault_fails_with_defaults : forall dd e r, ctor_fault subclass r ->
  exists err, startup_dflt subclass dd e r = Err err /\ (all_types r -> err = EInject).
Proof. intros dd. exact C08_env_ctor_fault_fails. Qed.

End C08.

(* ====================================================================== *)
(* Non-vacuity: a concrete robot on which every hypothesis is met.          *)
(* classes: 0 object, 1 int, 2 str, 3 list, 10 Sensor, 11 Gyro(Sensor),     *)
(*          20 Drive, 21 Shooter                                            *)
(* ====================================================================== *)
Definition ex_sub (a b : cls) : bool :=
  Nat.eqb a b || Nat.eqb b 0 || (Nat.eqb a 11 && Nat.eqb b 10).

Definition o_zero := {| oid := 1; ocls := 1; otruthy := false |}.   (* 0 *)
Definition o_empty := {| oid := 2; ocls := 2; otruthy := false |}.  (* '' *)
Definition o_gyro := {| oid := 3; ocls := 11; otruthy := true |}.
Definition o_list := {| oid := 4; ocls := 3; otruthy := false |}.   (* [] *)
Definition o_other := {| oid := 5; ocls := 10; otruthy := true |}.

Definition k_drive : classdef :=
  {| k_cls := 20; k_init_hints := [];
     k_hints := [("intvar", HType 1); ("label", HType 2); ("gyro", HType 10);
                 ("items", HAlias (Some 3)); ("shooter", HType 21);
                 ("_secret", HType 10); ("maybe", HType 10); ("logger", HType 0)];
     k_preset := [("maybe", PConst None)]; k_setup := true |}.
Definition k_shooter : classdef :=
  {| k_cls := 21; k_init_hints := [("drive", HType 20); ("intvar", HType 1)];
     k_hints := [("drive", HType 20); ("kept", HType 20)];
     k_preset := [("kept", PParam "drive")]; k_setup := true |}.
Definition d_drive := {| c_oid := 100; c_truthy := false; c_class := k_drive |}.
Definition d_shooter := {| c_oid := 101; c_truthy := true; c_class := k_shooter |}.

Definition ex_dir : list rattr :=
  [ {| ra_name := "_hidden"; ra_kind := KPlain; ra_value := Some o_other |};
    {| ra_name := "createObjects"; ra_kind := KMethod; ra_value := Some o_other |};
    {| ra_name := "drive_gyro"; ra_kind := KPlain; ra_value := Some o_gyro |};
    {| ra_name := "gyro"; ra_kind := KPlain; ra_value := None |};
    {| ra_name := "intvar"; ra_kind := KPlain; ra_value := Some o_zero |};
    {| ra_name := "items"; ra_kind := KPlain; ra_value := Some o_list |};
    {| ra_name := "label"; ra_kind := KPlain; ra_value := Some o_empty |};
    {| ra_name := "logger"; ra_kind := KPlain; ra_value := Some o_other |} ].

Definition ex_mode : modedef :=
  {| m_name := "auto"; m_hints := [("shooter", HType 21); ("drive", HType 20)];
     m_preset := []; m_setup := true |}.

Definition ex_robot : robot :=
  {| r_dir := ex_dir;
     r_hints := [("items", RNonType); ("drive", RClass d_drive); ("shooter", RClass d_shooter)];
     r_modes := [ex_mode] |}.

Definition ex_started : started :=
  {| st_comps := [ {| cr_name := "drive"; cr_def := d_drive; cr_kwargs := [] |};
                   {| cr_name := "shooter"; cr_def := d_shooter;
                      cr_kwargs := [("drive", comp_obj d_drive); ("intvar", o_zero)] |} ];
     st_updates := [ (TComp "drive", [("intvar", o_zero); ("label", o_empty); ("gyro", o_gyro);
                                      ("items", o_list); ("shooter", comp_obj d_shooter)]);
                     (TComp "shooter", [("drive", comp_obj d_drive)]);
                     (TMode "auto", [("shooter", comp_obj d_shooter); ("drive", comp_obj d_drive)]) ] |}.

(* startup succeeds; falsy 0, '' and [] are injected, the falsy component
   "drive" too; gyro (None on the robot) comes from drive_gyro, a subclass
   instance; shooter is declared after drive and still injected into it *)
Example C08_nv_starts : startup ex_sub ex_robot = Ok ex_started.
Proof. vm_compute. reflexivity. Qed.

Example C08_nv_hypotheses :
  In ("drive", d_drive) (components ex_robot) /\
  In ("shooter", HType 21) (k_hints (c_class d_drive)) /\
  is_private "shooter" = false /\ comp_has d_drive "shooter" = false /\
  NoDup (map fst (r_hints ex_robot)) /\ NoDup (map t_ref (targets ex_robot)) /\
  attr_at ex_robot (before_first_setup (trace_of ex_robot ex_started)) (TComp "drive") "shooter"
    = Is (Some (comp_obj d_shooter)) /\
  attr_at ex_robot (trace_of ex_robot ex_started) (TComp "drive") "maybe" = Is None /\
  attr_at ex_robot (trace_of ex_robot ex_started) (TComp "drive") "_secret" = Absent /\
  attr_at ex_robot (trace_of ex_robot ex_started) (TComp "shooter") "kept"
    = Is (Some (comp_obj d_drive)).
Proof.
  repeat split; try (vm_compute; reflexivity); try (vm_compute; tauto).
  - now apply (NoDup_by_computation String.eqb _ String.eqb_refl).
  - now apply (NoDup_by_computation tref_eqb _ tref_eqb_refl).
Qed.

Example C08_nv_all_types : all_types ex_robot.
Proof. now apply all_types_by_computation. Qed.

(* the other order of the two components: the constructor of shooter can no
   longer be served (drive does not exist yet) -- startup fails *)
Definition ex_robot_swapped : robot :=
  {| r_dir := ex_dir;
     r_hints := [("items", RNonType); ("shooter", RClass d_shooter); ("drive", RClass d_drive)];
     r_modes := [ex_mode] |}.
Example C08_nv_ctor_order_matters : startup ex_sub ex_robot_swapped = Err EInject.
Proof. vm_compute. reflexivity. Qed.

(* failure cases: absent under both names; wrong type; Optional[...] *)
Definition one_comp (hints : list (name * hint)) (dir : list rattr) : robot :=
  {| r_dir := dir;
     r_hints := [("c", RClass {| c_oid := 100; c_truthy := true;
                   c_class := {| k_cls := 20; k_init_hints := []; k_hints := hints;
                                 k_preset := []; k_setup := false |} |})];
     r_modes := [] |}.
Example C08_nv_absent : startup ex_sub (one_comp [("x", HType 10)] []) = Err EInject.
Proof. vm_compute. reflexivity. Qed.
Example C08_nv_wrong_type :
  startup ex_sub (one_comp [("x", HType 11)]
    [ {| ra_name := "x"; ra_kind := KPlain; ra_value := Some o_other |} ]) = Err EInject.
Proof. vm_compute. reflexivity. Qed.
Example C08_nv_optional_is_type_error :
  startup ex_sub (one_comp [("x", HAlias None)]
    [ {| ra_name := "x"; ra_kind := KPlain; ra_value := Some o_other |} ]) = Err EType.
Proof. vm_compute. reflexivity. Qed.
(* x = None on the robot: treated as absent, although None is an instance of
   object (class 0) *)
Example C08_nv_none_valued_attribute_is_absent :
  startup ex_sub (one_comp [("x", HType 0)]
    [ {| ra_name := "x"; ra_kind := KPlain; ra_value := None |} ]) = Err EInject.
Proof. vm_compute. reflexivity. Qed.

(* callable robot attributes: a response curve (instance of class 10 with
   __call__), a functools.partial (class 12) and a class object (class 13,
   type) are injected by name, as attribute and as constructor parameter;
   a bound method under the requested name is not an injectable *)
Definition o_curve := {| oid := 6; ocls := 10; otruthy := true |}.
Definition o_partial := {| oid := 7; ocls := 12; otruthy := true |}.
Definition o_klass := {| oid := 8; ocls := 13; otruthy := true |}.
Definition k_user : classdef :=
  {| k_cls := 22; k_init_hints := [("curve", HType 10)];
     k_hints := [("scaler", HType 12); ("kind", HType 13); ("curve", HType 0)];
     k_preset := []; k_setup := true |}.
Definition d_user := {| c_oid := 102; c_truthy := true; c_class := k_user |}.
Definition callable_dir : list rattr :=
  [ {| ra_name := "curve"; ra_kind := KCallable; ra_value := Some o_curve |};
    {| ra_name := "helper"; ra_kind := KMethod; ra_value := Some o_other |};
    {| ra_name := "kind"; ra_kind := KCallable; ra_value := Some o_klass |};
    {| ra_name := "scaler"; ra_kind := KCallable; ra_value := Some o_partial |} ].
Definition callable_robot : robot :=
  {| r_dir := callable_dir; r_hints := [("user", RClass d_user)]; r_modes := [] |}.
Example C08_nv_callables_injected :
  startup ex_sub callable_robot =
  Ok {| st_comps := [ {| cr_name := "user"; cr_def := d_user; cr_kwargs := [("curve", o_curve)] |} ];
        st_updates := [ (TComp "user", [("scaler", o_partial); ("kind", o_klass); ("curve", o_curve)]) ] |}.
Proof. vm_compute. reflexivity. Qed.
Example C08_nv_callable_hypotheses :
  NoDup (map ra_name (r_dir callable_robot)) /\ NoDup (map fst (r_hints callable_robot)) /\
  components callable_robot = [] ++ ("user", d_user) :: [] /\
  dir_entry callable_robot "curve"
    = Some {| ra_name := "curve"; ra_kind := KCallable; ra_value := Some o_curve |} /\
  injectable_attr {| ra_name := "curve"; ra_kind := KCallable; ra_value := Some o_curve |} = true /\
  get (robot_injectables callable_robot) "helper" = None.
Proof.
  repeat split; try (vm_compute; reflexivity);
    now apply (NoDup_by_computation String.eqb _ String.eqb_refl).
Qed.
Example C08_nv_bound_method_not_injected :
  startup ex_sub (one_comp [("helper", HType 0)]
    [ {| ra_name := "helper"; ra_kind := KMethod; ra_value := Some o_other |} ]) = Err EInject.
Proof. vm_compute. reflexivity. Qed.

(* names that resemble "logger": all 19 proper substrings, names containing it,
   case variants.  Each IS a substring / superstring in Python's sense and none
   is excluded; a recorder asks for log (attribute and constructor parameter),
   g, er, logg, loggers, Logger: it gets the robot's objects, log from robot.log
   although robot.rec_log exists too *)
Definition logger_substrings : list name :=
  ["l"; "o"; "g"; "e"; "r"; "lo"; "og"; "gg"; "ge"; "er"; "log"; "ogg"; "gge"; "ger";
   "logg"; "ogge"; "gger"; "logge"; "ogger"].
Definition logger_superstrings : list name :=
  ["loggers"; "logger_"; "logger2"; "xlogger"; "my_logger"; "logger_x"].
Example C08_nv_logger_like_names_not_excluded :
  forallb (fun n => str_in n "logger" && negb (excluded n) && negb (is_private n)) logger_substrings = true /\
  forallb (fun n => str_in "logger" n && negb (excluded n) && negb (is_private n)) logger_superstrings = true /\
  excluded "Logger" = false /\ excluded "LOGGER" = false /\
  str_in "logger" "logger" = true /\ excluded "logger" = true.
Proof. vm_compute. repeat split; reflexivity. Qed.

Definition o_log := {| oid := 9; ocls := 10; otruthy := true |}.
Definition o_reclog := {| oid := 10; ocls := 10; otruthy := true |}.
Definition k_rec : classdef :=
  {| k_cls := 23; k_init_hints := [("log", HType 10); ("ogger", HType 1)];
     k_hints := [("log", HType 10); ("g", HType 1); ("er", HType 2); ("logg", HType 3);
                 ("loggers", HType 10); ("Logger", HType 0)];
     k_preset := []; k_setup := true |}.
Definition d_rec := {| c_oid := 103; c_truthy := true; c_class := k_rec |}.
Definition names_dir : list rattr :=
  [ {| ra_name := "Logger"; ra_kind := KPlain; ra_value := Some o_other |};
    {| ra_name := "er"; ra_kind := KPlain; ra_value := Some o_empty |};
    {| ra_name := "g"; ra_kind := KPlain; ra_value := Some o_zero |};
    {| ra_name := "log"; ra_kind := KPlain; ra_value := Some o_log |};
    {| ra_name := "logg"; ra_kind := KPlain; ra_value := Some o_list |};
    {| ra_name := "logger"; ra_kind := KPlain; ra_value := Some o_other |};
    {| ra_name := "loggers"; ra_kind := KCallable; ra_value := Some o_curve |};
    {| ra_name := "ogger"; ra_kind := KPlain; ra_value := Some o_zero |};
    {| ra_name := "rec_log"; ra_kind := KPlain; ra_value := Some o_reclog |} ].
Definition names_mode : modedef :=
  {| m_name := "auto"; m_hints := [("log", HType 10); ("er", HType 2)]; m_preset := []; m_setup := false |}.
Definition names_robot : robot :=
  {| r_dir := names_dir; r_hints := [("rec", RClass d_rec)]; r_modes := [names_mode] |}.
Example C08_nv_logger_like_names_injected :
  startup ex_sub names_robot =
  Ok {| st_comps := [ {| cr_name := "rec"; cr_def := d_rec;
                         cr_kwargs := [("log", o_log); ("ogger", o_zero)] |} ];
        st_updates := [ (TComp "rec", [("log", o_log); ("g", o_zero); ("er", o_empty); ("logg", o_list);
                                       ("loggers", o_curve); ("Logger", o_other)]);
                        (TMode "auto", [("log", o_log); ("er", o_empty)]) ] |}.
Proof. vm_compute. reflexivity. Qed.
Example C08_nv_by_name_hypotheses :
  NoDup (map ra_name (r_dir names_robot)) /\ NoDup (map fst (r_hints names_robot)) /\
  components names_robot = [] ++ ("rec", d_rec) :: [] /\
  is_private "log" = false /\ "log" <> "logger" /\ comp_has d_rec "log" = false /\
  mode_has names_mode "log" = false /\
  dir_entry names_robot "log" = Some {| ra_name := "log"; ra_kind := KPlain; ra_value := Some o_log |} /\
  get (robot_injectables names_robot) "rec_log" = Some o_reclog /\
  get (robot_injectables names_robot) "logger" = None.
Proof.
  repeat split; try (vm_compute; reflexivity); try discriminate;
    now apply (NoDup_by_computation String.eqb _ String.eqb_refl).
Qed.
(* a renaming that meets the hypothesis of C08_names_treated_alike and is not
   the identity: gearbox -> log *)
Example C08_nv_rename :
  let f := fun n => if String.eqb n "gearbox" then "log" else n in
  let dir := [ {| ra_name := "gearbox"; ra_kind := KPlain; ra_value := Some o_log |};
               {| ra_name := "logger"; ra_kind := KPlain; ra_value := Some o_other |};
               {| ra_name := "_x"; ra_kind := KPlain; ra_value := Some o_other |} ] in
  (forall a, In a dir -> is_private (f (ra_name a)) = is_private (ra_name a) /\
                         excluded (f (ra_name a)) = excluded (ra_name a)) /\
  collect_injectables (map (rename_attr f) dir) = [("log", Some o_log)].
Proof.
  split; [|vm_compute; reflexivity].
  intros a [<-|[<-|[<-|[]]]]; vm_compute; split; reflexivity.
Qed.

(* the driver station: on the bench, and (re)started on the field in the middle
   of a match.  A robot with the gyro, one component and three autonomous modes:
   [m_good] can be served, [m_missing] asks for an arm the robot does not have,
   [m_mistyped] wants robot.gyro to be a Shooter (class 21). *)
Definition env_bench := {| fms_attached := false; ds_enabled := false |}.
Definition env_match := {| fms_attached := true; ds_enabled := true |}.
Definition k_chassis : classdef :=
  {| k_cls := 20; k_init_hints := []; k_hints := [("gyro", HType 10)]; k_preset := []; k_setup := true |}.
Definition d_chassis := {| c_oid := 104; c_truthy := true; c_class := k_chassis |}.
Definition m_good : modedef :=
  {| m_name := "good"; m_hints := [("drive", HType 20); ("gyro", HType 10)]; m_preset := []; m_setup := true |}.
Definition m_missing : modedef :=
  {| m_name := "missing"; m_hints := [("drive", HType 20); ("arm", HType 21)]; m_preset := []; m_setup := false |}.
Definition m_mistyped : modedef :=
  {| m_name := "mistyped"; m_hints := [("drive", HType 20); ("gyro", HType 21)]; m_preset := []; m_setup := false |}.
Definition field_robot (modes : list modedef) : robot :=
  {| r_dir := [ {| ra_name := "gyro"; ra_kind := KPlain; ra_value := Some o_gyro |} ];
     r_hints := [("drive", RClass d_chassis)]; r_modes := modes |}.
Definition field_started : started :=
  {| st_comps := [ {| cr_name := "drive"; cr_def := d_chassis; cr_kwargs := [] |} ];
     st_updates := [ (TComp "drive", [("gyro", o_gyro)]);
                     (TMode "good", [("drive", comp_obj d_chassis); ("gyro", o_gyro)]) ] |}.
Example C08_nv_env_good_mode_starts :
  startup_in ex_sub env_bench (field_robot [m_good]) = Ok field_started /\
  startup_in ex_sub env_match (field_robot [m_good]) = Ok field_started.
Proof. split; vm_compute; reflexivity. Qed.
(* a missing / mistyped dependency of a mode: the injection error, FMS or not, also
   when the faulty mode comes after a good one *)
Example C08_nv_env_faulty_mode_fails :
  startup_in ex_sub env_bench (field_robot [m_good; m_missing]) = Err EInject /\
  startup_in ex_sub env_match (field_robot [m_good; m_missing]) = Err EInject /\
  startup_in ex_sub env_bench (field_robot [m_mistyped; m_good]) = Err EInject /\
  startup_in ex_sub env_match (field_robot [m_mistyped; m_good]) = Err EInject.
Proof. vm_compute. repeat split. Qed.
(* the hypotheses of C08_env_mode_fault_fails are met by both *)
Example C08_nv_env_mode_fault_hypotheses :
  In m_missing (r_modes (field_robot [m_good; m_missing])) /\ In ("arm", HType 21) (m_hints m_missing) /\
  is_private "arm" = false /\ mode_has m_missing "arm" = false /\
  request_fails ex_sub (all_injectables (field_robot [m_good; m_missing])) "missing" "arm" (HType 21) /\
  request_fails ex_sub (all_injectables (field_robot [m_mistyped; m_good])) "mistyped" "gyro" (HType 21) /\
  all_types (field_robot [m_good; m_missing]).
Proof.
  split; [simpl; tauto|]. split; [simpl; tauto|]. split; [reflexivity|]. split; [reflexivity|].
  split; [|split; [|now apply all_types_by_computation]].
  - (* nothing under "arm" or "missing_arm" *) intros o H. vm_compute in H. discriminate.
  - (* "gyro" is there, a Gyro and not a Shooter *) intros o H. vm_compute in H. injection H as <-. reflexivity.
Qed.
(* The statements exclude something: the start-up that runs each injection
   inside "try: ... except: self.onException()" (Proofs.startup_tolerant, NOT
   the code) agrees on the bench, but started on the field it leaves the mode
   without its arm and carries on. *)
Example C08_nv_env_tolerant_startup_would_differ :
  startup_tolerant ex_sub env_bench (field_robot [m_good; m_missing]) = Err EInject /\
  exists s, startup_tolerant ex_sub env_match (field_robot [m_good; m_missing]) = Ok s /\
    attr_at (field_robot [m_good; m_missing]) (trace_of (field_robot [m_good; m_missing]) s)
            (TMode "missing") "arm" = Absent /\
    attr_at (field_robot [m_good; m_missing]) (trace_of (field_robot [m_good; m_missing]) s)
            (TMode "missing") "drive" = Absent.
Proof.
  split; [vm_compute; reflexivity|].
  eexists. split; [vm_compute; reflexivity|]. vm_compute. split; reflexivity.
Qed.

(* `gain: float = tunable(0.25)` (class 4 = float) next to an injected `gyro`, in
   a component and in an autonomous mode; the robot ALSO stores a float under
   "gain" and one under "tuned_gain".  Start-up succeeds, only gyro is written,
   gain still reads the tunable's own value -- also when its annotation is not
   a class at all. *)
Definition o_tunable_value := {| oid := 700; ocls := 4; otruthy := true |}.    (* what the bound tunable reads *)
Definition o_robot_gain := {| oid := 11; ocls := 4; otruthy := true |}.
Definition o_robot_tuned_gain := {| oid := 12; ocls := 4; otruthy := true |}.
Definition k_tuned (gain_hint : hint) (preset : list (name * pval)) : classdef :=
  {| k_cls := 24; k_init_hints := []; k_hints := [("gyro", HType 10); ("gain", gain_hint)];
     k_preset := preset; k_setup := true |}.
Definition d_tuned gain_hint preset := {| c_oid := 105; c_truthy := true; c_class := k_tuned gain_hint preset |}.
Definition m_tuned (preset : list (name * pval)) : modedef :=
  {| m_name := "auto"; m_hints := [("gain", HType 4); ("gyro", HType 10)]; m_preset := preset; m_setup := true |}.
Definition tuned_dir (with_gain : bool) : list rattr :=
  (if with_gain then [ {| ra_name := "gain"; ra_kind := KPlain; ra_value := Some o_robot_gain |} ] else [])
  ++ [ {| ra_name := "gyro"; ra_kind := KPlain; ra_value := Some o_gyro |};
       {| ra_name := "tuned_gain"; ra_kind := KPlain; ra_value := Some o_robot_tuned_gain |} ].
Definition tuned_robot (with_gain : bool) gain_hint (preset : list (name * pval)) : robot :=
  {| r_dir := tuned_dir with_gain; r_hints := [("tuned", RClass (d_tuned gain_hint preset))];
     r_modes := [m_tuned preset] |}.
Definition bound_gain : list (name * pval) := [("gain", PBound (Some o_tunable_value))].
Definition tuned_started gain_hint : started :=
  {| st_comps := [ {| cr_name := "tuned"; cr_def := d_tuned gain_hint bound_gain; cr_kwargs := [] |} ];
     st_updates := [ (TComp "tuned", [("gyro", o_gyro)]); (TMode "auto", [("gyro", o_gyro)]) ] |}.
Example C08_nv_bound_attribute_untouched :
  startup ex_sub (tuned_robot true (HType 4) bound_gain) = Ok (tuned_started (HType 4)) /\
  startup ex_sub (tuned_robot false (HType 4) bound_gain) = Ok (tuned_started (HType 4)) /\
  startup ex_sub (tuned_robot true HNonType bound_gain) = Ok (tuned_started HNonType) /\
  let r := tuned_robot true (HType 4) bound_gain in
  let tr := trace_of r (tuned_started (HType 4)) in
  attr_at r (before_first_setup tr) (TComp "tuned") "gain" = Is (Some o_tunable_value) /\
  attr_at r tr (TComp "tuned") "gain" = Is (Some o_tunable_value) /\
  attr_at r tr (TMode "auto") "gain" = Is (Some o_tunable_value) /\
  attr_at r tr (TComp "tuned") "gyro" = Is (Some o_gyro).
Proof. repeat split; vm_compute; reflexivity. Qed.
(* the hypotheses of C08_untouched_preset / C08_set_attr_never_written hold for both targets *)
Example C08_nv_bound_attribute_hypotheses :
  let r := tuned_robot true (HType 4) bound_gain in
  NoDup (map t_ref (targets r)) /\
  In (comp_target "tuned" (d_tuned (HType 4) bound_gain)) (targets r) /\
  In (mode_target (m_tuned bound_gain)) (targets r) /\
  t_has (comp_target "tuned" (d_tuned (HType 4) bound_gain)) "gain" = true /\
  t_has (mode_target (m_tuned bound_gain)) "gain" = true /\
  In (EvInject (TComp "tuned") [("gyro", o_gyro)]) (trace_of r (tuned_started (HType 4))) /\
  pick (all_injectables r) "tuned" "gain" = Some o_robot_gain.
Proof.
  repeat split; try (vm_compute; reflexivity).
  - now apply (NoDup_by_computation tref_eqb _ tref_eqb_refl).
  - apply comp_in_targets. simpl. auto.
  - apply mode_in_targets. simpl. auto.
  - vm_compute. tauto.
Qed.
(* the two annotations of C08_nv_bound_attribute_untouched meet C08_set_attr_annotation_irrelevant *)
Example C08_nv_bound_annotation_irrelevant_hypotheses :
  let tg := comp_target "tuned" (d_tuned (HType 4) bound_gain) in
  let tg' := comp_target "tuned" (d_tuned HNonType bound_gain) in
  t_ref tg = t_ref tg' /\ (forall n, t_has tg n = t_has tg' n) /\
  requested (t_has tg) (t_hints tg) = requested (t_has tg') (t_hints tg') /\ t_hints tg <> t_hints tg'.
Proof. repeat split; try reflexivity. discriminate. Qed.
(* It matters that hasattr is true WHEN _setup_vars looks: the same classes with
   nothing bound yet (an unbound tunable raises AttributeError: no preset) make
   "gain" a request -- the robot's float is written over it; without a robot
   "gain" the mode (there is no "auto_gain") stops a well-formed robot with the
   injection error; a non-class annotation stops it with TypeError. *)
Example C08_nv_unbound_attribute_would_be_requested :
  (exists s, startup ex_sub (tuned_robot true (HType 4) []) = Ok s /\
     attr_at (tuned_robot true (HType 4) []) (trace_of (tuned_robot true (HType 4) []) s) (TComp "tuned") "gain"
       = Is (Some o_robot_gain)) /\
  startup ex_sub (tuned_robot false (HType 4) []) = Err EInject /\
  startup ex_sub (tuned_robot true HNonType []) = Err EType.
Proof.
  split; [eexists; split; vm_compute; reflexivity|vm_compute; split; reflexivity].
Qed.

(* two arms of ONE class (class 25: `encoder: Sensor`, `gain: int`); the
   simulated one sets self.encoder in __init__, the real one does not.  In
   either declaration order the real arm gets the robot's encoder and the
   simulated arm keeps its own; both get the gain.  The same for two autonomous
   modes of one class. *)
Definition o_sim_encoder := {| oid := 13; ocls := 10; otruthy := true |}.
Definition k_arm (simulated : bool) : classdef :=
  {| k_cls := 25; k_init_hints := []; k_hints := [("encoder", HType 10); ("gain", HType 1)];
     k_preset := if simulated then [("encoder", PConst (Some o_sim_encoder))] else []; k_setup := true |}.
Definition d_arm (id : nat) simulated := {| c_oid := id; c_truthy := true; c_class := k_arm simulated |}.
Definition m_arm (nm : name) (simulated : bool) : modedef :=
  {| m_name := nm; m_hints := [("encoder", HType 10); ("gain", HType 1)];
     m_preset := if simulated then [("encoder", PConst (Some o_sim_encoder))] else []; m_setup := false |}.
Definition arms_robot (with_encoder left_simulated : bool) : robot :=
  {| r_dir := (if with_encoder then [ {| ra_name := "encoder"; ra_kind := KPlain; ra_value := Some o_gyro |} ] else [])
              ++ [ {| ra_name := "gain"; ra_kind := KPlain; ra_value := Some o_zero |} ];
     r_hints := [("left", RClass (d_arm 106 left_simulated)); ("right", RClass (d_arm 107 (negb left_simulated)))];
     r_modes := [m_arm "ma" left_simulated; m_arm "mb" (negb left_simulated)] |}.
Definition arm_update (simulated : bool) : list (name * obj) :=
  if simulated then [("gain", o_zero)] else [("encoder", o_gyro); ("gain", o_zero)].
Example C08_nv_same_class_instances_on_their_own : forall left_simulated,
  exists s, startup ex_sub (arms_robot true left_simulated) = Ok s /\
    st_updates s = [ (TComp "left", arm_update left_simulated); (TComp "right", arm_update (negb left_simulated));
                     (TMode "ma", arm_update left_simulated); (TMode "mb", arm_update (negb left_simulated)) ] /\
    let r := arms_robot true left_simulated in
    let sim := if left_simulated then "left" else "right" in
    let real := if left_simulated then "right" else "left" in
    attr_at r (trace_of r s) (TComp sim) "encoder" = Is (Some o_sim_encoder) /\
    attr_at r (before_first_setup (trace_of r s)) (TComp real) "encoder" = Is (Some o_gyro) /\
    attr_at r (trace_of r s) (TComp real) "encoder" = Is (Some o_gyro) /\
    attr_at r (trace_of r s) (TMode (if left_simulated then "ma" else "mb")) "encoder" = Is (Some o_sim_encoder) /\
    attr_at r (trace_of r s) (TMode (if left_simulated then "mb" else "ma")) "encoder" = Is (Some o_gyro).
Proof. intros [|]; (eexists; split; [vm_compute; reflexivity|]); vm_compute; repeat split. Qed.
(* same class, same annotations, different requests *)
Example C08_nv_same_class_different_requests :
  k_cls (k_arm true) = k_cls (k_arm false) /\ k_hints (k_arm true) = k_hints (k_arm false) /\
  requested (comp_has (d_arm 106 false)) (k_hints (k_arm false)) = [("encoder", HType 10); ("gain", HType 1)] /\
  requested (comp_has (d_arm 107 true)) (k_hints (k_arm true)) = [("gain", HType 1)] /\
  In (comp_target "right" (d_arm 107 true)) (targets (arms_robot true false)) /\
  In (comp_target "left" (d_arm 106 false)) (targets (arms_robot false false)).
Proof. repeat split; try reflexivity; apply comp_in_targets; simpl; auto. Qed.
(* without an encoder on the robot the real arm cannot be served: start-up
   fails, whether the real arm is created first or second *)
Example C08_nv_same_class_unserved_instance_fails :
  startup ex_sub (arms_robot false false) = Err EInject /\ startup ex_sub (arms_robot false true) = Err EInject /\
  setup_vars ex_sub (comp_target "right" (d_arm 107 false)) (all_injectables (arms_robot false true)) = Err EInject /\
  setup_vars ex_sub (comp_target "left" (d_arm 106 true)) (all_injectables (arms_robot false true)) = Ok [("gain", o_zero)].
Proof. vm_compute. repeat split. Qed.

(* `class Arm: def __init__(self, encoder: Sensor = None, gain: int = 1)`:
   the robot's objects are passed, not the defaults; a gain of the wrong type,
   a missing encoder, an earlier component called encoder that is no Sensor
   stop start-up with the injection error whatever the defaults are. *)
Definition o_default_gain := {| oid := 14; ocls := 1; otruthy := true |}.
Definition arm_defaults : init_defaults := [("encoder", None); ("gain", Some o_default_gain)].
Definition k_dflt_arm : classdef :=
  {| k_cls := 26; k_init_hints := [("encoder", HType 10); ("gain", HType 1)]; k_hints := [];
     k_preset := [("kept", PParam "gain")]; k_setup := false |}.
Definition d_dflt_arm := {| c_oid := 108; c_truthy := true; c_class := k_dflt_arm |}.
Definition d_not_a_sensor :=
  {| c_oid := 109; c_truthy := true;
     c_class := {| k_cls := 21; k_init_hints := []; k_hints := []; k_preset := []; k_setup := false |} |}.
Definition dflt_robot (dir : list rattr) (first : list (name * rhint)) : robot :=
  {| r_dir := dir; r_hints := first ++ [("arm", RClass d_dflt_arm)]; r_modes := [] |}.
Definition ra (n : name) (o : obj) := {| ra_name := n; ra_kind := KPlain; ra_value := Some o |}.
Example C08_nv_default_not_used :
  startup_dflt ex_sub [("arm", arm_defaults)] env_bench (dflt_robot [ra "encoder" o_gyro; ra "gain" o_zero] [])
  = Ok {| st_comps := [ {| cr_name := "arm"; cr_def := d_dflt_arm;
                           cr_kwargs := [("encoder", o_gyro); ("gain", o_zero)] |} ];
          st_updates := [ (TComp "arm", []) ] |} /\
  attr_at (dflt_robot [ra "encoder" o_gyro; ra "gain" o_zero] [])
          [EvCtor "arm" [("encoder", o_gyro); ("gain", o_zero)]] (TComp "arm") "kept" = Is (Some o_zero).
Proof. split; vm_compute; reflexivity. Qed.
Example C08_nv_default_is_no_way_around_a_failure :
  (* gain is a str *)
  startup_dflt ex_sub [("arm", arm_defaults)] env_bench (dflt_robot [ra "encoder" o_gyro; ra "gain" o_empty] []) = Err EInject /\
  (* no encoder, no arm_encoder *)
  startup_dflt ex_sub [("arm", arm_defaults)] env_match (dflt_robot [ra "gain" o_zero] []) = Err EInject /\
  (* only arm_gain, and that is a str *)
  startup_dflt ex_sub [("arm", arm_defaults)] env_bench (dflt_robot [ra "arm_gain" o_empty; ra "encoder" o_gyro] []) = Err EInject /\
  (* an earlier component called encoder that is not a Sensor *)
  startup_dflt ex_sub [("arm", arm_defaults)] env_bench
    (dflt_robot [ra "gain" o_zero] [("encoder", RClass d_not_a_sensor)]) = Err EInject /\
  ctor_fault ex_sub (dflt_robot [ra "encoder" o_gyro; ra "gain" o_empty] []).
Proof.
  repeat split; try (vm_compute; reflexivity).
  exists [], "arm", d_dflt_arm, [], "gain", (HType 1). split; [reflexivity|]. split; [simpl; tauto|].
  right. intros o H. vm_compute in H. inversion H; subst. reflexivity.
Qed.
(* The statements exclude something: the _create_component that resolves
   defaulted parameters leniently (Proofs.create_component_lenient, NOT the
   code) constructs the arm from a robot whose gain is a str and which has no
   encoder -- both parameters left to their defaults --, agrees when the
   robot's objects are fine, and is the code when nothing declares a default. *)
Example C08_nv_default_lenient_would_differ :
  let inj := collect_injectables [ra "gain" o_empty] in
  create_component_dflt ex_sub arm_defaults "arm" d_dflt_arm inj = Err EInject /\
  create_component_lenient ex_sub arm_defaults "arm" d_dflt_arm inj = Ok [] /\
  create_component_lenient ex_sub [] "arm" d_dflt_arm inj = Err EInject /\
  create_component_lenient ex_sub arm_defaults "arm" d_dflt_arm (collect_injectables [ra "encoder" o_gyro; ra "gain" o_zero])
    = Ok [("encoder", o_gyro); ("gain", o_zero)].
Proof. vm_compute. repeat split. Qed.

Print Assumptions C08_attr_exact.
Print Assumptions C08_attr_exact_modes.
Print Assumptions C08_injectables_are_attrs_and_all_components.
Print Assumptions C08_inject_before_setup.
Print Assumptions C08_order_independent.
Print Assumptions C08_order_independent_attr.
Print Assumptions C08_order_independent_success.
Print Assumptions C08_untouched.
Print Assumptions C08_untouched_private.
Print Assumptions C08_untouched_preset.
Print Assumptions C08_ctor.
Print Assumptions C08_ctor_sources.
Print Assumptions C08_fail_iff.
Print Assumptions C08_fail_inject_iff.
Print Assumptions C08_error_class.
Print Assumptions C08_falsy_injects.
Print Assumptions C08_none_is_absent.
Print Assumptions C08_robot_injectables_exact.
Print Assumptions C08_robot_attr_delivered.
Print Assumptions C08_robot_attr_delivered_modes.
Print Assumptions C08_robot_attr_ctor_delivered.
Print Assumptions C08_robot_attr_serves.
Print Assumptions C08_callable_irrelevant.
Print Assumptions C08_excluded_iff_logger.
Print Assumptions C08_robot_injectables_by_name.
Print Assumptions C08_names_treated_alike.
Print Assumptions C08_robot_attr_by_name_delivered.
Print Assumptions C08_robot_attr_by_name_delivered_modes.
Print Assumptions C08_robot_attr_by_name_ctor_delivered.
Print Assumptions C08_plain_name_wins.
Print Assumptions C08_robot_attr_by_name_serves.
Print Assumptions C08_env_irrelevant.
Print Assumptions C08_env_observation_irrelevant.
Print Assumptions C08_env_fail_iff.
Print Assumptions C08_env_mode_fault_fails.
Print Assumptions C08_env_comp_fault_fails.
Print Assumptions C08_env_ctor_fault_fails.
Print Assumptions C08_env_attr_exact.
Print Assumptions C08_env_attr_exact_modes.
Print Assumptions C08_set_attr_never_written.
Print Assumptions C08_set_attr_annotation_irrelevant.
Print Assumptions C08_each_target_on_its_own.
Print Assumptions C08_target_failure_on_its_own.
Print Assumptions C08_ctor_defaults_irrelevant.
Print Assumptions C08_startup_defaults_irrelevant.
Print Assumptions C08_ctor_with_defaults.
Print Assumptions C08_ctor_fault_fails_with_defaults.
