(* C06 -- Component lifecycle: setup once, on_enable/on_disable bracket every execute.

   The statements are about [spec_sites c ts], the call sequence that C05/C07 prove the
   robot makes (and about its parts [enter_sites], [leave_sites], [tick_sites]; the first
   is about the start-up program itself), for EVERY layout [c] and EVERY finite sequence [ts] of driver-station
   words (mode changes on consecutive wake-ups, direct switches between enabled modes,
   endCompetition in any mode).  Statements; the proofs are in Robot/. *)
From Coq Require Import ZArith List Bool.
From RV Require Import Robot.Model Robot.Proofs Robot.Loop Robot.Lifecycle Robot.Examples.
Import ListNotations.
Open Scope Z_scope.

Section C06.
Variable c : cfg.

(* setup() of every component that has one: exactly once, all of them before any
   other callback, none later *)
Theorem C06_setup_once_first : forall ts,
  spec_sites c ts = startup_sites c ++ ticks_sites c None ts /\
  NoDup (startup_sites c) /\
  (forall i, In (SSetup i) (startup_sites c) <-> (i < ncomp c)%nat /\ has_setup c i = true) /\
  (forall s, In s (startup_sites c) -> is_setup s = true) /\
  (forall s, In s (ticks_sites c None ts) -> is_setup s = false).
Proof. exact (setup_once_first c). Qed.

(* the callbacks of the startup program are the setup() calls and no others (that everything
   is created and injected before the first of them is C08_inject_before_setup) *)
Theorem C06_startup_is_only_setups : psites (startup c) = startup_sites c.
Proof. exact (psites_startup c). Qed.

(* entering autonomous or teleop: every component's on_enable() in declaration order,
   then the mode's init hook, then (autonomous) the selected mode's on_enable, and only
   then the first pass with its execute() calls *)
Theorem C06_enable_before_mode :
  enter_sites c Teleop = map SOnEnable (filter (has_enable c) (seq 0 (ncomp c))) ++ [SInit Teleop]
  /\ enter_sites c Auto = map SOnEnable (filter (has_enable c) (seq 0 (ncomp c))) ++ [SInit Auto]
                          ++ (if has_auto c then [SAutoEnable] else []).
Proof. exact (conj eq_refl eq_refl). Qed.

(* leaving them: (autonomous: the mode's on_disable, then) every component's
   on_disable() before any callback of the next mode; and again on entering disabled *)
Theorem C06_disable_on_leave :
  leave_sites c Teleop = map SOnDisable (filter (has_disable c) (seq 0 (ncomp c)))
  /\ leave_sites c Auto = (if has_auto c then [SAutoDisable] else []) ++ map SOnDisable (filter (has_disable c) (seq 0 (ncomp c)))
  /\ enter_sites c Disabled = map SOnDisable (filter (has_disable c) (seq 0 (ncomp c))) ++ [SInit Disabled]
  /\ (forall m en au te, stays m en au te = false ->
        snd (tick_sites c (Some m) (Tick en au te)) =
        leave_sites c m ++ enter_sites c (dispatch en au te) ++ iter_sites c (dispatch en au te))
  /\ (forall m, snd (tick_sites c (Some m) End) = leave_sites c m).
Proof.
  exact (conj eq_refl (conj eq_refl (conj eq_refl (conj (tick_sites_change c) (fun m => eq_refl))))).
Qed.

(* consequently: along the whole call sequence, execute() of a component that has an
   on_enable() only ever runs after that on_enable() and before its next on_disable()
   ([brk] replays the sequence with one flag per component and fails on such an execute) *)
Theorem C06_execute_bracketed : forall ts, brk c (fun _ => false) (spec_sites c ts) <> None.
Proof. exact (execute_bracketed c). Qed.
End C06.

(* Non-vacuity: the checker does reject a sequence with an unbracketed execute; and a wake-up
   that switches teleop -> autonomous directly, as the example history does, runs on_disable,
   on_enable and the first autonomous pass at once *)
Example C06_nv_checker_rejects :
  brk (ex_cfg true) (fun _ => false) [SOnEnable 0; SExecute 0; SOnDisable 0; SExecute 0] = None.
Proof. reflexivity. Qed.
Example C06_nv_direct_switches :
  snd (tick_sites (ex_cfg true) (Some Teleop) (Tick true true false))
  = [SOnDisable 0; SOnEnable 0; SOnEnable 1; SInit Auto; SAutoEnable; SAutoIter; SPeriodic Teleop;
     SExecute 0; SExecute 1; SFeedback 0; SFeedback 1; SFeedback 2; SRobotPeriodic].
Proof. reflexivity. Qed.

Print Assumptions C06_setup_once_first.
Print Assumptions C06_startup_is_only_setups.
Print Assumptions C06_enable_before_mode.
Print Assumptions C06_disable_on_leave.
Print Assumptions C06_execute_bracketed.
