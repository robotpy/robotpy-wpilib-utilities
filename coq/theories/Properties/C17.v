(* C17 -- Sharp IR distance readings are bounded, monotone and invert the sim
   model.  Statements only; every proof is one [exact] of lemmas of IR.Proofs.

   [reading c e lo hi fl v] is getDistance() of a driver whose analog input
   reports v volts:      max(min(c * pow(max(v, fl), e), hi), lo)
   [volts c e lo hi d]   is the voltage setDistance(d) of the matching helper
   puts on that input:   pow(max(min(d, hi), lo) / c, 1 / e)
   (IR/Model.v; over the real numbers, Rpower x y = exp (y * ln x)).

   Part 1 states the property for EVERY parameter set with
   c > 0, e < 0, 0 < lo < hi, fl > 0;  Parts 2-4 are the three instances with
   the literals of distance_sensors.py / distance_sensors_sim.py, which are
   the property as written (22.5-145 cm, 10-80 cm, 4.5-35 cm).  That the
   literals in the model are the literals in the code is re-established on
   every run by the correspondence (harness/c17.py): all ADC codes and the
   special doubles through the real AnalogInput simulation, each compared
   with [reading_*] / [volts_*] by a generated lemma (closed by the [A##_q_*]
   and [A##_rio_*] instances of IR.Proofs, for infinite samples by its
   [corr_*inf] lemmas; the power-law premise by [interval]). *)
From Coq Require Import Reals.
From RV Require Import IR.Model IR.Proofs.
Open Scope R_scope.

(* ---- Part 1: every admissible parameter set --------------------------- *)
Section C17.
Variables c e lo hi fl : R.
(* a premise of every statement of the section, [Proof using Hadm] where the
   lemma behind it holds of any five numbers (C17_power_law, C17_floor,
   C17_sim_remembers, C17_rio_pin_only) *)
Hypothesis Hadm : 0 < c /\ e < 0 /\ 0 < lo /\ lo < hi /\ 0 < fl.

(* no exception for any voltage: math.pow is never called on a base <= 0 *)
Theorem C17_no_exception : forall v,
  reading_opt c e lo hi fl v = Some (reading c e lo hi fl v).
Proof. exact (reading_total c e lo hi fl Hadm). Qed.

(* for ALL real v: zero, negative, out-of-range included *)
Theorem C17_in_range : forall v, lo <= reading c e lo hi fl v <= hi.
Proof. exact (in_range c e lo hi fl Hadm). Qed.

Theorem C17_antitone : forall v1 v2,
  v1 <= v2 -> reading c e lo hi fl v2 <= reading c e lo hi fl v1.
Proof. exact (antitone c e lo hi fl Hadm). Qed.

(* strictly so where neither limit pins it *)
Theorem C17_strictly_decreasing_inside : forall v1 v2,
  fl <= v1 -> v1 < v2 -> lo <= c * Rpower v2 e -> c * Rpower v1 e <= hi ->
  reading c e lo hi fl v2 < reading c e lo hi fl v1.
Proof. exact (strictly_decreasing_inside c e lo hi fl Hadm). Qed.

(* inside the range (and above the floor) the reading IS the power law *)
Theorem C17_power_law : forall v,
  fl <= v -> lo <= c * Rpower v e <= hi ->
  reading c e lo hi fl v = c * Rpower v e.
Proof using Hadm. exact (power_law_inside c e lo hi fl). Qed.

(* at and below the floor -- 0 V and every negative voltage -- the reading is
   the reading at the floor *)
Theorem C17_floor : forall v,
  v <= fl -> reading c e lo hi fl v = reading c e lo hi fl fl.
Proof using Hadm. exact (below_floor c e lo hi fl). Qed.

(* infinite voltages: still in range, still ordered; +inf reads lo *)
Theorem C17_infinite_voltages :
  (forall v : xreal, lo <= reading_x c e lo hi fl v <= hi) /\
  (forall v1 v2 : xreal,
     xle v1 v2 -> reading_x c e lo hi fl v2 <= reading_x c e lo hi fl v1) /\
  reading_x c e lo hi fl PInf = lo.
Proof.
  exact (conj (in_range_x c e lo hi fl Hadm)
        (conj (antitone_x c e lo hi fl Hadm) (reading_pinf c e lo hi fl Hadm))).
Qed.

(* the helper: no exception for any distance, zero and negative included *)
Theorem C17_sim_no_exception : forall d,
  volts_opt c e lo hi d = Some (volts c e lo hi d).
Proof. exact (volts_total c e lo hi fl Hadm). Qed.

(* the helper is the inverse of the driver: the sensor reads d clamped.
   The side condition says that the lowest voltage the helper ever sets (the
   one for the far limit) is not below the driver's floor. *)
Theorem C17_sim_inverse : forall d,
  fl <= volts c e lo hi hi ->
  reading c e lo hi fl (volts c e lo hi d) = Rmax (Rmin d hi) lo.
Proof. exact (fun d Hf => sim_inverse c e lo hi fl Hadm Hf d). Qed.

(* ... also for d = +inf / -inf (reads hi / lo) *)
Theorem C17_sim_inverse_inf : forall d : xreal,
  fl <= volts c e lo hi hi ->
  reading c e lo hi fl (volts_x c e lo hi d) = clamp_x lo hi d.
Proof. exact (fun d Hf => sim_inverse_x c e lo hi fl Hadm Hf d). Qed.

(* the same through the helper's state: after setDistance(d), whatever
   happened before, the sensor reads d clamped ... *)
Theorem C17_sim_sensor : forall (s : sim_state) d,
  fl <= volts c e lo hi hi ->
  sensor_distance c e lo hi fl (set_distance c e lo hi s d) = Rmax (Rmin d hi) lo.
Proof. exact (fun s d Hf => sim_sensor c e lo hi fl Hadm Hf s d). Qed.

(* ... and the helper's getDistance() returns the d that was set, unclamped *)
Theorem C17_sim_remembers : forall (s : sim_state) d,
  get_distance (set_distance c e lo hi s d) = d.
Proof using Hadm. exact (sim_remembers c e lo hi). Qed.

(* ---- the reading depends on the pin voltage and on nothing else -------- *)
(* [rio] is the whole simulated roboRIO: the sensor's pin, the 5 V / 3.3 V /
   6 V user rails, the battery, the rail enable flags, currents, brownout
   threshold, CPU temperature (any non-NaN double each).  getDistance() on it
   is [rio_distance_opt] ([None] = an exception). *)

(* whatever the rails are (sagging, 0 V, negative, infinite, switched off):
   no exception, and the value is the pin-only reading of the theorems above *)
Theorem C17_rio_reading : forall r : rio,
  rio_distance_opt c e lo hi fl r = Some (reading_x c e lo hi fl (pin r)).
Proof. exact (rio_total c e lo hi fl Hadm). Qed.

(* two roboRIOs with the same pin voltage give the same outcome *)
Theorem C17_rio_pin_only : forall r1 r2 : rio,
  pin r1 = pin r2 ->
  rio_distance_opt c e lo hi fl r1 = rio_distance_opt c e lo hi fl r2.
Proof using Hadm. exact (rio_pin_only c e lo hi fl). Qed.

Theorem C17_rio_in_range : forall r : rio,
  exists x, rio_distance_opt c e lo hi fl r = Some x /\ lo <= x <= hi.
Proof. exact (rio_in_range c e lo hi fl Hadm). Qed.

(* monotone in the pin voltage even when everything else changes between the
   two readings *)
Theorem C17_rio_antitone : forall r1 r2 : rio,
  xle (pin r1) (pin r2) ->
  rio_distance c e lo hi fl r2 <= rio_distance c e lo hi fl r1.
Proof. exact (rio_antitone c e lo hi fl Hadm). Qed.

Theorem C17_rio_power_law : forall (r : rio) v,
  pin r = Fin v -> fl <= v -> lo <= c * Rpower v e <= hi ->
  rio_distance_opt c e lo hi fl r = Some (c * Rpower v e).
Proof. exact (rio_power_law c e lo hi fl Hadm). Qed.

(* the helper on any roboRIO: the sensor reads d clamped (d = +-inf
   included) and nothing but the pin has changed *)
Theorem C17_rio_sim : forall (r : rio) (d : xreal),
  fl <= volts c e lo hi hi ->
  rio_distance_opt c e lo hi fl (rio_set_distance c e lo hi r d) = Some (clamp_x lo hi d) /\
  same_rails (rio_set_distance c e lo hi r d) r.
Proof. exact (fun r d Hf => rio_sim c e lo hi fl Hadm Hf r d). Qed.

End C17.

(* ---- Part 2: SharpIR2Y0A02 -- 62.28 * V ^ -1.092, 22.5 .. 145 cm ------ *)

Theorem C17_A02_in_range : forall v, 22.5 <= reading_A02 v <= 145.
Proof. exact (in_range _ _ _ _ _ A02_admissible). Qed.

Theorem C17_A02_antitone : forall v1 v2, v1 <= v2 -> reading_A02 v2 <= reading_A02 v1.
Proof. exact (antitone _ _ _ _ _ A02_admissible). Qed.

Theorem C17_A02_power_law : forall v,
  0.00001 <= v -> 22.5 <= 62.28 * Rpower v (-1.092) <= 145 ->
  reading_A02 v = 62.28 * Rpower v (-1.092).
Proof. exact (power_law_inside A02_c A02_e A02_lo A02_hi floor_volts). Qed.

(* no exception for any voltage; 0 V, negative voltages and everything up to
   the floor read the far limit, and so does -inf; +inf reads the near limit *)
Theorem C17_A02_edge_voltages :
  (forall v, reading_opt 62.28 (-1.092) 22.5 145 0.00001 v = Some (reading_A02 v)) /\
  (forall v, v <= 0.00001 -> reading_A02 v = 145) /\
  reading_x 62.28 (-1.092) 22.5 145 0.00001 NInf = 145 /\
  reading_x 62.28 (-1.092) 22.5 145 0.00001 PInf = 22.5.
Proof. exact (edge_voltages _ _ _ _ _ A02_admissible A02_floor_reads_hi). Qed.

Theorem C17_A02_sim_inverse : forall d,
  reading_A02 (volts_A02 d) = Rmax (Rmin d 145) 22.5.
Proof. exact (sim_inverse _ _ _ _ _ A02_admissible A02_floor_below_sim). Qed.

Theorem C17_A02_sim_remembers : forall (s : sim_state) d,
  let s' := set_distance 62.28 (-1.092) 22.5 145 s d in
  get_distance s' = d /\
  sensor_distance 62.28 (-1.092) 22.5 145 0.00001 s' = Rmax (Rmin d 145) 22.5.
Proof. exact (sim_after_set _ _ _ _ _ A02_admissible A02_floor_below_sim). Qed.

(* on every simulated roboRIO -- any 5 V / 3.3 V / 6 V rail, battery, enable
   flags -- the driver returns a distance in range, follows the power law of
   the PIN voltage, and reads d clamped after the helper's setDistance(d) *)
Theorem C17_A02_any_rails : forall r : rio,
  (exists x, rio_distance_opt 62.28 (-1.092) 22.5 145 0.00001 r = Some x /\ 22.5 <= x <= 145) /\
  (forall v, pin r = Fin v -> 0.00001 <= v -> 22.5 <= 62.28 * Rpower v (-1.092) <= 145 ->
     rio_distance_opt 62.28 (-1.092) 22.5 145 0.00001 r = Some (62.28 * Rpower v (-1.092))) /\
  (forall d, rio_distance_opt 62.28 (-1.092) 22.5 145 0.00001 (rio_set_distance 62.28 (-1.092) 22.5 145 r (Fin d))
             = Some (Rmax (Rmin d 145) 22.5)).
Proof. exact (any_rails _ _ _ _ _ A02_admissible A02_floor_below_sim). Qed.

(* ---- Part 3: SharpIR2Y0A21 -- 26.449 * V ^ -1.226, 10 .. 80 cm -------- *)

Theorem C17_A21_in_range : forall v, 10 <= reading_A21 v <= 80.
Proof. exact (in_range _ _ _ _ _ A21_admissible). Qed.

Theorem C17_A21_antitone : forall v1 v2, v1 <= v2 -> reading_A21 v2 <= reading_A21 v1.
Proof. exact (antitone _ _ _ _ _ A21_admissible). Qed.

Theorem C17_A21_power_law : forall v,
  0.00001 <= v -> 10 <= 26.449 * Rpower v (-1.226) <= 80 ->
  reading_A21 v = 26.449 * Rpower v (-1.226).
Proof. exact (power_law_inside A21_c A21_e A21_lo A21_hi floor_volts). Qed.

Theorem C17_A21_edge_voltages :
  (forall v, reading_opt 26.449 (-1.226) 10 80 0.00001 v = Some (reading_A21 v)) /\
  (forall v, v <= 0.00001 -> reading_A21 v = 80) /\
  reading_x 26.449 (-1.226) 10 80 0.00001 NInf = 80 /\
  reading_x 26.449 (-1.226) 10 80 0.00001 PInf = 10.
Proof. exact (edge_voltages _ _ _ _ _ A21_admissible A21_floor_reads_hi). Qed.

Theorem C17_A21_sim_inverse : forall d,
  reading_A21 (volts_A21 d) = Rmax (Rmin d 80) 10.
Proof. exact (sim_inverse _ _ _ _ _ A21_admissible A21_floor_below_sim). Qed.

Theorem C17_A21_sim_remembers : forall (s : sim_state) d,
  let s' := set_distance 26.449 (-1.226) 10 80 s d in
  get_distance s' = d /\
  sensor_distance 26.449 (-1.226) 10 80 0.00001 s' = Rmax (Rmin d 80) 10.
Proof. exact (sim_after_set _ _ _ _ _ A21_admissible A21_floor_below_sim). Qed.

Theorem C17_A21_any_rails : forall r : rio,
  (exists x, rio_distance_opt 26.449 (-1.226) 10 80 0.00001 r = Some x /\ 10 <= x <= 80) /\
  (forall v, pin r = Fin v -> 0.00001 <= v -> 10 <= 26.449 * Rpower v (-1.226) <= 80 ->
     rio_distance_opt 26.449 (-1.226) 10 80 0.00001 r = Some (26.449 * Rpower v (-1.226))) /\
  (forall d, rio_distance_opt 26.449 (-1.226) 10 80 0.00001 (rio_set_distance 26.449 (-1.226) 10 80 r (Fin d))
             = Some (Rmax (Rmin d 80) 10)).
Proof. exact (any_rails _ _ _ _ _ A21_admissible A21_floor_below_sim). Qed.

(* ---- Part 4: SharpIR2Y0A41 -- 12.84 * V ^ -0.9824, 4.5 .. 35 cm ------- *)

Theorem C17_A41_in_range : forall v, 4.5 <= reading_A41 v <= 35.
Proof. exact (in_range _ _ _ _ _ A41_admissible). Qed.

Theorem C17_A41_antitone : forall v1 v2, v1 <= v2 -> reading_A41 v2 <= reading_A41 v1.
Proof. exact (antitone _ _ _ _ _ A41_admissible). Qed.

Theorem C17_A41_power_law : forall v,
  0.00001 <= v -> 4.5 <= 12.84 * Rpower v (-0.9824) <= 35 ->
  reading_A41 v = 12.84 * Rpower v (-0.9824).
Proof. exact (power_law_inside A41_c A41_e A41_lo A41_hi floor_volts). Qed.

Theorem C17_A41_edge_voltages :
  (forall v, reading_opt 12.84 (-0.9824) 4.5 35 0.00001 v = Some (reading_A41 v)) /\
  (forall v, v <= 0.00001 -> reading_A41 v = 35) /\
  reading_x 12.84 (-0.9824) 4.5 35 0.00001 NInf = 35 /\
  reading_x 12.84 (-0.9824) 4.5 35 0.00001 PInf = 4.5.
Proof. exact (edge_voltages _ _ _ _ _ A41_admissible A41_floor_reads_hi). Qed.

Theorem C17_A41_sim_inverse : forall d,
  reading_A41 (volts_A41 d) = Rmax (Rmin d 35) 4.5.
Proof. exact (sim_inverse _ _ _ _ _ A41_admissible A41_floor_below_sim). Qed.

Theorem C17_A41_sim_remembers : forall (s : sim_state) d,
  let s' := set_distance 12.84 (-0.9824) 4.5 35 s d in
  get_distance s' = d /\
  sensor_distance 12.84 (-0.9824) 4.5 35 0.00001 s' = Rmax (Rmin d 35) 4.5.
Proof. exact (sim_after_set _ _ _ _ _ A41_admissible A41_floor_below_sim). Qed.

Theorem C17_A41_any_rails : forall r : rio,
  (exists x, rio_distance_opt 12.84 (-0.9824) 4.5 35 0.00001 r = Some x /\ 4.5 <= x <= 35) /\
  (forall v, pin r = Fin v -> 0.00001 <= v -> 4.5 <= 12.84 * Rpower v (-0.9824) <= 35 ->
     rio_distance_opt 12.84 (-0.9824) 4.5 35 0.00001 r = Some (12.84 * Rpower v (-0.9824))) /\
  (forall d, rio_distance_opt 12.84 (-0.9824) 4.5 35 0.00001 (rio_set_distance 12.84 (-0.9824) 4.5 35 r (Fin d))
             = Some (Rmax (Rmin d 35) 4.5)).
Proof. exact (any_rails _ _ _ _ _ A41_admissible A41_floor_below_sim). Qed.

(* ---- Non-vacuity ------------------------------------------------------ *)

(* the hypothesis of Part 1 is met by the three parameter sets of the code,
   and so is the side condition of the sim theorems *)
Example C17_nv_admissible :
  (0 < 62.28 /\ -1.092 < 0 /\ 0 < 22.5 /\ 22.5 < 145 /\ 0 < 0.00001) /\
  (0 < 26.449 /\ -1.226 < 0 /\ 0 < 10 /\ 10 < 80 /\ 0 < 0.00001) /\
  (0 < 12.84 /\ -0.9824 < 0 /\ 0 < 4.5 /\ 4.5 < 35 /\ 0 < 0.00001).
Proof. exact (conj A02_admissible (conj A21_admissible A41_admissible)). Qed.
Example C17_nv_side_condition :
  0.00001 <= volts 62.28 (-1.092) 22.5 145 145 /\
  0.00001 <= volts 26.449 (-1.226) 10 80 80 /\
  0.00001 <= volts 12.84 (-0.9824) 4.5 35 35.
Proof. exact (conj A02_floor_below_sim (conj A21_floor_below_sim A41_floor_below_sim)). Qed.
(* the power-law clause is not vacuous: 1 V is inside every range and reads
   the coefficient; the reading is not constant (0 V reads 145 cm) *)
Example C17_nv_power_law :
  reading_A02 1 = 62.28 /\ reading_A21 1 = 26.449 /\ reading_A41 1 = 12.84 /\
  reading_A02 0 = 145.
Proof. exact (conj A02_at_1V (conj A21_at_1V (conj A41_at_1V A02_at_0V))). Qed.
(* the premises of the strict clause are met by 1 V < 1.5 V *)
Example C17_nv_strict : reading_A02 1.5 < reading_A02 1.
Proof. exact A02_strict_example. Qed.
(* the twelve cases of tests/test_distance_sensors.py, exactly *)
Example C17_nv_sim :
  (reading_A02 (volts_A02 10) = 22.5 /\ reading_A02 (volts_A02 200) = 145 /\
   reading_A02 (volts_A02 50) = 50 /\ reading_A02 (volts_A02 100) = 100) /\
  (reading_A21 (volts_A21 5) = 10 /\ reading_A21 (volts_A21 100) = 80 /\
   reading_A21 (volts_A21 30) = 30 /\ reading_A21 (volts_A21 60) = 60) /\
  (reading_A41 (volts_A41 2) = 4.5 /\ reading_A41 (volts_A41 50) = 35 /\
   reading_A41 (volts_A41 10) = 10 /\ reading_A41 (volts_A41 25) = 25).
Proof. exact (conj A02_sim_examples (conj A21_sim_examples A41_sim_examples)). Qed.

(* the rail theorems are about roboRIOs that really differ: 1 V on the pin
   reads 26.449 cm with the 5 V rail sagging to 4.6 V and with the rail at
   0 V and switched off *)
Example C17_nv_rio :
  rio_distance_opt 26.449 (-1.226) 10 80 0.00001
    {| pin := Fin 1; user5V := Fin 4.6; user3V3 := Fin 3.3; user6V := Fin 6; vin := Fin 12;
       active5V := true; active3V3 := true; active6V := true; aux := nil |} = Some 26.449 /\
  rio_distance_opt 26.449 (-1.226) 10 80 0.00001
    {| pin := Fin 1; user5V := Fin 0; user3V3 := PInf; user6V := NInf; vin := Fin 6.3;
       active5V := false; active3V3 := true; active6V := false; aux := Fin 0 :: nil |} = Some 26.449.
Proof. exact (conj (A21_rio_at_1V _ _ _ _ _ _ _ _) (A21_rio_at_1V _ _ _ _ _ _ _ _)). Qed.

Print Assumptions C17_no_exception.
Print Assumptions C17_in_range.
Print Assumptions C17_antitone.
Print Assumptions C17_strictly_decreasing_inside.
Print Assumptions C17_power_law.
Print Assumptions C17_floor.
Print Assumptions C17_infinite_voltages.
Print Assumptions C17_sim_no_exception.
Print Assumptions C17_sim_inverse.
Print Assumptions C17_sim_inverse_inf.
Print Assumptions C17_sim_sensor.
Print Assumptions C17_sim_remembers.
Print Assumptions C17_rio_reading.
Print Assumptions C17_rio_pin_only.
Print Assumptions C17_rio_in_range.
Print Assumptions C17_rio_antitone.
Print Assumptions C17_rio_power_law.
Print Assumptions C17_rio_sim.
Print Assumptions C17_A02_in_range.
Print Assumptions C17_A02_antitone.
Print Assumptions C17_A02_power_law.
Print Assumptions C17_A02_edge_voltages.
Print Assumptions C17_A02_sim_inverse.
Print Assumptions C17_A02_sim_remembers.
Print Assumptions C17_A02_any_rails.
Print Assumptions C17_A21_in_range.
Print Assumptions C17_A21_antitone.
Print Assumptions C17_A21_power_law.
Print Assumptions C17_A21_edge_voltages.
Print Assumptions C17_A21_sim_inverse.
Print Assumptions C17_A21_sim_remembers.
Print Assumptions C17_A21_any_rails.
Print Assumptions C17_A41_in_range.
Print Assumptions C17_A41_antitone.
Print Assumptions C17_A41_power_law.
Print Assumptions C17_A41_edge_voltages.
Print Assumptions C17_A41_sim_inverse.
Print Assumptions C17_A41_sim_remembers.
Print Assumptions C17_A41_any_rails.
