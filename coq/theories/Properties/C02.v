(* C02 -- Timed states last their duration, run at least once, and chain without drift.

   Model: SM.Model.  Time is Z ticks; [start m] is the machine's clock origin,
   tm = now - start m; [st_start]/[st_exp] are a state's entry and expiry in
   machine time; [duration_of sh m s] is the value of the '<s>_duration' tunable
   as it is now (the NetworkTables-editable [dur m s]) for a timed state.
   EvBk s a e is the first-call bookkeeping of an entry: absolute entry instant a,
   absolute expiry e.  [nested] is whatever next_state_now() re-enters (any
   function), [body] is arbitrary user code.  Statements only. *)
From Coq Require Import ZArith List Bool.
From RV Require Import SM.Model SM.Basics SM.Engage SM.Invariants SM.Stop SM.Timing SM.Auto SM.Drift SM.Check SM.Examples.
Import ListNotations.
Open Scope Z_scope.

Section C02.
Variable sh : shape.
Variable body : nat -> name -> Z -> Z -> bool -> list action.
Variable nested : sm -> Z -> sm * list event.

(* a timed state that has run is the state that runs on every (requested or
   must_finish) iteration with tm <= entry + duration: it is called, not initially,
   with state_tm measured from its entry *)
Theorem C02_holds_until_expiry : forall m now s,
  engaged m = true -> cur m = Some s -> ran (sdat m s) = true ->
  now - start m <= st_exp (sdat m s) -> requested_or_must sh m s -> clk m <= now ->
  exists m2 e,
    exec_step sh body nested m now =
    (m2, EvCall s (now - start m) (now - start m - st_start (sdat m s)) false true :: e).
Proof. exact (holds_until_expiry sh body nested). Qed.

(* on the first iteration with tm > entry + duration control passes to its
   next_state; the successor's clock starts at the predecessor's expiry, not at
   the iteration that noticed it, and its own expiry is that instant plus ITS
   duration tunable as it is at this moment *)
Theorem C02_expiry_hands_over : forall m now s dc n,
  engaged m = true -> cur m = Some s -> ran (sdat m s) = true ->
  st_exp (sdat m s) < now - start m ->
  lookup sh s = Some dc -> d_timed dc = true -> d_next dc = Some n -> is_state sh n = true ->
  requested_or_must sh m n -> clk m <= now ->
  let x := st_exp (sdat m s) in
  exists m2 e,
    exec_step sh body nested m now =
    (m2, EvEnter n :: EvBk n (start m + x) (start m + (x + duration_of sh m n))
         :: EvCall n (now - start m) (now - start m - x) true true :: e).
Proof. exact (expiry_hands_over sh body nested). Qed.

(* ... or the machine finishes if it has none: done() is invoked; a machine that is
   still requested starts over at the first state in a clock frame whose origin is
   the expiry instant (tm restarts at now - expiry, state_tm likewise) *)
Theorem C02_expiry_of_last_state_cycles : forall m now s dc,
  sh_auto sh = false -> should m = true ->
  engaged m = true -> cur m = Some s -> ran (sdat m s) = true ->
  st_exp (sdat m s) < now - start m ->
  lookup sh s = Some dc -> d_timed dc = true -> d_next dc = None -> clk m <= now ->
  let x := st_exp (sdat m s) in
  let f := sh_first sh in
  exists m2 e,
    exec_step sh body nested m now =
    (m2, EvDone :: EvEnter f :: EvBk f (start m + x) (start m + x + duration_of sh m f)
         :: EvCall f (now - start m - x) (now - start m - x - 0) true true :: e).
Proof. exact (expiry_cycles sh body nested). Qed.

(* ... and the iteration in which the last timed state of a chain expires begins
   with done(), whether or not the machine is requested again (the premise on the
   request is not used; requested, the iteration goes on as in the theorem above).
   Stated again as C13_last_state_expiry_finishes. *)
Theorem C02_expiry_of_last_state_finishes : forall m now s dc,
  (should m = false \/ sh_auto sh = true) ->
  engaged m = true -> cur m = Some s -> ran (sdat m s) = true ->
  st_exp (sdat m s) < now - start m ->
  lookup sh s = Some dc -> d_timed dc = true -> d_next dc = None -> clk m <= now ->
  exists e, snd (exec_step sh body nested m now) = EvDone :: e.
Proof. exact (fun m now s dc _ => expiry_calls_done sh body nested m now s dc). Qed.

(* a state that has just been entered is always run once before it can expire,
   whatever tm is; its bookkeeping reads the duration tunable at that moment *)
Theorem C02_entered_runs_once : forall m now s,
  engaged m = true -> cur m = Some s -> ran (sdat m s) = false ->
  requested_or_must sh m s -> clk m <= now ->
  let tm := now - start m in
  exists m2 e,
    exec_step sh body nested m now =
    (m2, EvBk s (start m + tm) (start m + (tm + duration_of sh m s))
         :: EvCall s tm (tm - tm) true true :: e).
Proof. exact (entered_runs_once sh body nested). Qed.

(* a NetworkTables write to '<s>_duration' changes what later entries read; the
   fields listed, among them the expiry of a state already entered, do not move *)
Theorem C02_duration_write : forall fuel m s d,
  let m' := fst (step sh body fuel m (SetDuration s d)) in
  sdat m' = sdat m /\ cur m' = cur m /\ start m' = start m /\ engaged m' = engaged m
  /\ should m' = should m /\ dur m' s = d /\ (forall x, x <> s -> dur m' x = dur m x).
Proof. exact (set_duration_frame sh body). Qed.

(* state_tm is never negative (nor is tm inside an engagement): for every history
   inside the contract, every call, at every nesting depth (stated again as
   C03_times_nonneg) *)
Theorem C02_state_tm_nonneg : forall fuel h m, wf_shape sh -> Inv sh m ->
  ok (trace_of (snd (run sh body fuel m h))) ->
  forall s tm stm i e, In (EvCall s tm stm i e) (trace_of (snd (run sh body fuel m h))) ->
    0 <= stm /\ (e = true -> 0 <= tm).
Proof. exact (fun fuel h m Hwf HI Hok => calls_in _ _ (proj2 (run_inv sh body Hwf fuel h m HI Hok))). Qed.
End C02.

(* No drift: a continuously engaged machine whose state functions request no
   transition, started from a stopped machine and iterated at ANY non-decreasing
   instants t, t1, t2, ... (pauses longer than several durations, readings exactly
   on an expiry): the first state is entered at t, and every later entry -- by
   expiry of the predecessor or by the restart of the cycle -- is at exactly the
   expiry instant of the entry before it ([chain]).  That each expiry instant is
   the entry instant plus the state's duration is the EvBk conjunct of the
   one-step theorems above (C02_expiry_hands_over, C02_expiry_of_last_state_cycles);
   together: a chain lasts the sum of its durations. *)
Theorem C02_no_drift : forall sh fuel m t ts,
  wf_shape sh -> sh_auto sh = false ->
  Idle sh m -> clk m <= t -> mono_from t ts ->
  ok (concat (snd (run sh body0 (S fuel) m (continuous (t :: ts))))) ->
  exists e rest,
    concat (snd (run sh body0 (S fuel) m (continuous (t :: ts)))) =
      EvEnter (sh_first sh) :: EvBk (sh_first sh) t e :: rest /\
    chain (Some e) rest.
Proof. exact (fun sh fuel m t ts Hwf Ha => no_drift sh Hwf Ha fuel m t ts). Qed.

(* a machine that cycles a -> b -> a; ticks are 1/64 s (TPS of harness/sm_common.py), so the
   code's 0xFFFFFFFF s for an untimed state is 4294967295 * 64 ticks *)
Definition cyc_shape : shape :=
  {| sh_states := [ (0%nat, {| d_must := false; d_timed := true; d_next := Some 1%nat |});
                    (1%nat, {| d_must := false; d_timed := true; d_next := None |}) ];
     sh_first := 0%nat; sh_default := None; sh_inf := 4294967295 * 64; sh_auto := false |}.
Definition cyc_init := init_sm (fun s => match s with 0%nat => 4 | _ => 3 end).
(* iterate every 5 ticks (coarser than both durations): entries stay on the 4,3,4,3 grid *)
Example C02_nv_no_drift :
  wf_shape cyc_shape /\ Idle cyc_shape cyc_init /\ mono_from 100 [105; 110; 115; 120; 125; 130] /\
  filter (fun e => match e with EvBk _ _ _ => true | _ => false end)
         (concat (snd (run cyc_shape body0 3 cyc_init (continuous [100; 105; 110; 115; 120; 125; 130]))))
  = [EvBk 0%nat 100 104; EvBk 1%nat 104 107; EvBk 0%nat 107 111; EvBk 1%nat 111 114;
     EvBk 0%nat 114 118; EvBk 1%nat 118 121; EvBk 0%nat 121 125].
Proof.
  split; [apply wf_shapeb_sound; vm_compute; reflexivity|].
  split; [split; [apply Inv_init | split; reflexivity]|].
  split; [cbn; repeat split; discriminate|]. vm_compute. reflexivity.
Qed.
Example C02_nv_hands_over_premises :
  (* state of the example machine after "Execute 15": a has run, expiry 8 in machine time *)
  let m := fst (run (ex_shape false) ex_body 8 ex_init (firstn 9 ex_hist)) in
  engaged m = true /\ cur m = Some 0%nat /\ ran (sdat m 0%nat) = true /\ st_exp (sdat m 0%nat) = 8 /\ start m = 11.
Proof. vm_compute. repeat split. Qed.

Print Assumptions C02_holds_until_expiry.
Print Assumptions C02_expiry_hands_over.
Print Assumptions C02_expiry_of_last_state_cycles.
Print Assumptions C02_expiry_of_last_state_finishes.
Print Assumptions C02_entered_runs_once.
Print Assumptions C02_duration_write.
Print Assumptions C02_state_tm_nonneg.
Print Assumptions C02_no_drift.
