(* C10 -- will_reset_to values never survive into the next control-loop iteration.

   [w_store w ci a] is attribute a of component ci; [marked c ci a = Some d] says it is a
   will_reset_to(d) attribute (inherited markers included: collect_resets walks the class
   and its bases; the harness generates both).  [writes k] are the assignments made by the
   k-th callback invocation -- teleopPeriodic, the autonomous mode, any component, any
   feedback getter.  Statements; the proofs are in Robot/. *)
From Coq Require Import ZArith List Bool.
From RV Require Import Robot.Model Robot.Proofs Robot.Loop Robot.Lifecycle Robot.Examples.
Import ListNotations.
Open Scope Z_scope.

Section C10.
Variable c : cfg.
Variable raises : nat -> bool.
Variable writes : nat -> list (nat * nat * Z).
Variable fbval : nat -> Z.

(* each will_reset_to attribute starts at its declared default *)
Theorem C10_defaults_at_start : forall ci a d, marked c ci a = Some d -> w_store (init_world c) ci a = d.
Proof. exact (init_store_defaults c). Qed.

(* after every teleop or autonomous pass -- whatever its callbacks assigned and whichever
   of them raised (FMS attached) -- every will_reset_to attribute holds its default again,
   and the robot is still running *)
Theorem C10_reset_after_enabled_iteration : forall m w, w_fms w = true -> enabled_mode m = true -> in_flight w = false ->
  let '(w', e) := denote c raises writes fbval (iteration c m) w in
  in_flight w' = false /\ forall ci a d, marked c ci a = Some d -> w_store w' ci a = d.
Proof. exact (fun m w Hf => iteration_resets c raises writes fbval m w (or_introl Hf)). Qed.

(* the same for every pass that completes: the FMS is attached when it starts, OR no callback
   of the pass raises (the only passes that complete when the FMS is not attached) *)
Theorem C10_reset_after_every_completed_iteration : forall m w,
  (w_fms w = true \/ (forall i, (i < length (psites (iteration c m)))%nat -> raises (w_n w + i)%nat = false)) ->
  enabled_mode m = true -> in_flight w = false ->
  let '(w', e) := denote c raises writes fbval (iteration c m) w in
  in_flight w' = false /\ forall ci a d, marked c ci a = Some d -> w_store w' ci a = d.
Proof. exact (iteration_resets c raises writes fbval). Qed.

(* the reset comes after all execute() calls, the feedbacks and robotPeriodic *)
Theorem C10_reset_is_last : exists before,
  enabled_periodic c = PSeq before (PSeq (do_periodics c) (PSeq PReset PNop))
  /\ psites before = map SExecute (seq 0 (ncomp c)).
Proof. exact (ex_intro _ _ (conj eq_refl (psites_execs c))). Qed.

(* assignments stay visible within a pass, one invocation at a time: a callback changes the
   store by its own assignments and nothing else ... *)
Theorem C10_assignments_are_visible : forall s w,
  let '(w1, e) := invoke c raises writes s w in
  w_store w1 = apply_writes (writes (w_n w)) (w_store w).
Proof.
  intros s w. pose proof (invoke_spec c raises writes s w) as H.
  destruct (invoke c raises writes s w). apply H.
Qed.
(* ... and execute() is shown the store as it is at that moment *)
Theorem C10_execute_sees_current_values : forall i w, in_flight w = false ->
  snd (invoke c raises writes (SExecute i) w) = [EvExec i (snapshot c w)].
Proof. exact (fun i w _ => execute_sees_store c raises writes i w). Qed.

(* other attributes of the component are never touched by the reset *)
Theorem C10_unmarked_untouched : forall st ci a, marked c ci a = None -> reset_store c st ci a = st ci a.
Proof. exact (reset_store_unmarked c). Qed.
Theorem C10_marked_reset : forall st ci a d, marked c ci a = Some d -> reset_store c st ci a = d.
Proof. exact (reset_store_marked c). Qed.
End C10.

(* Non-vacuity: in the example, execute() of component 0 assigns 99 to its will_reset_to(7)
   attribute and 5 to a plain attribute of component 1 during the first teleop pass: the
   second execute() of that pass sees both; in the next pass the marked one is 7 again and
   the plain one still 5 -- although two feedback getters raised in between (FMS attached) *)
Example C10_nv :
  filter (fun e => match e with EvExec _ _ => true | _ => false end) (firstn 25 (snd (ex_run true)))
  = [ EvExec 0 [[7; 0]; [0; 0]]; EvExec 1 [[99; 0]; [5; 0]];
      EvExec 0 [[7; 0]; [5; 0]]; EvExec 1 [[7; 0]; [5; 0]] ].
Proof. vm_compute. reflexivity. Qed.

Print Assumptions C10_defaults_at_start.
Print Assumptions C10_reset_after_enabled_iteration.
Print Assumptions C10_reset_after_every_completed_iteration.
Print Assumptions C10_reset_is_last.
Print Assumptions C10_assignments_are_visible.
Print Assumptions C10_execute_sees_current_values.
Print Assumptions C10_unmarked_untouched.
Print Assumptions C10_marked_reset.
