(* C16 -- NotifierDelay keeps the loop on a fixed time grid without drift.
   Statements only: each is closed by the lemmas of Delay.Proofs (the float part by
   those of Delay.FloatPeriodProofs) that it is made of; the examples by evaluation.

   Vocabulary (Delay/Model.v; [no_release], [bodies], [exit_infos], [is_raised] stand in
   Delay/Proofs.v).  Times are FPGA microseconds (Z).
     create p t0            the object built at FPGA time t0 with period p us
     create_opt P t0        the constructor with its argument P in seconds
                            (None = ValueError)
     sched bs               the loop `body(b); delay.wait()` for each b of bs
     wait_log s ops         one pair (t_call, t_return) per wait()
     grid t0 p k            t0 + k*p, the k-th grid point
     lateness t0 p i rec    return time of the record rec, the i-th of a log,
                            minus its grid point t0 + (i+1)*p
     final s ops            object and clock after the operations
     snap_of s, snaps s ops what an observer sees of a state (clock, the HAL's
                            alarm, releases so far), and the list of these
                            after each operation of ops that is not a body
     Free                   free(), or __del__
     Enter                  __enter__ of the with-statement (at the instant of
                            construction in `with NotifierDelay(P) as d:`, or
                            any time later in `d = NotifierDelay(P); ...; with d:`)
     entered_late setup bs  Body setup :: Enter :: sched bs -- the object is
                            built, set-up work takes [setup] us, then the
                            with-block is entered and the loop runs in it
     no_release ops         ops contains no Free and no Exit (bodies, waits and
                            __enter__ in any order and number)
     without_enter ops      ops with every Enter removed
     enter_log s ops        one bool per __enter__: it returned the object itself
     Exit exc               __exit__ of the with-statement; exc = the exception
                            that leaves the block (None: there is none)
     leave_with h           Exit, for the way h the block is left: EndOfBlock,
                            BreakOut, ReturnOut, Raised e (any exception class)
     is_free o              o is Free or any Exit: must release the notifier
     exit_log s ops         one bool per __exit__: an exception comes out of
                            the with-statement
   The i-th record of a log (from 0) is the (i+1)-th wait.

   Two threads (the loop thread inside wait(), another thread shutting it down):
     WaitBegin / WaitEnd    the two halves of wait() around its HAL call:
                            `handle = self._notifier; if handle is None: return;
                            <enter hal.waitForNotifierAlarm(handle)>` and
                            `<the HAL call returns>; self._expiry_time +=
                            self.delay_period; self._update_alarm(handle)`
     Other o                a whole operation o (Body: time passes; Free, Exit,
                            Enter, Wait) by the thread that is not inside wait()
     cinit d t              the state: object d, clock t, no wait() in progress
     crun s h               the state after the history h (a list of the above)
     c_obj, c_now, c_pend,  its object, clock, the wait() in progress (if any),
     c_outside              and whether h left the model (two wait() at once)
     clog s h               one triple (t_call, t_left, left_by_exception) per
                            wait() that was left, whole or in halves
     crel o                 o is Other Free or Other (Exit _)
     seq_cops ops           the sequential use ops as a history: every Wait
                            becomes WaitBegin; WaitEnd with nothing in between
     lin h                  the sequential use a history amounts to when nobody
                            releases: every WaitEnd becomes a Wait at that point
     cwf false h            h is well bracketed (halves alternate, no second
                            wait() while one is in progress, none left open)
     cquiet o               o is Other (Body _) or Other Enter
     cinstant o             o is Other Free, Other Enter or Other (Exit _)
     cbodies h              the sum of the bodies of h

   The HAL notifier is the function [hal_wait]: a wait issued at t_call with
   alarm a returns at max t_call a.  With two threads: the HAL call of a wait()
   in progress returns, when its second half runs at clock c', at max c' alarm
   -- or at c' when the notifier has been stopped meanwhile;
   updateNotifierAlarm on a cleaned handle does nothing; a None handle makes the
   binding raise TypeError ([wait_end d false _] is left by an exception).
   These are assumptions about the (simulated) HAL, not theorems; they are
   validated on every run by the correspondence (harness/c16.py), the
   two-thread ones with a real second thread.

   No theorem restricts the body durations: they may be zero, shorter than,
   equal to or any multiple of the period (or any integer at all). *)
From Coq Require Import ZArith QArith Qabs List.
From RV Require Import Delay.Model Delay.Proofs Delay.FloatPeriod Delay.FloatPeriodProofs.
Import ListNotations.
Open Scope Z_scope.

(* After any schedule of k waits the next alarm is grid point k+1, the alarm
   the HAL holds is that expiry, the object is live with its period unchanged
   and nothing was released -- whatever the body durations. *)
Theorem C16_expiry_on_grid : forall p t0 bs,
  let d := fst (final (create p t0, t0) (sched bs)) in
  expiry d = grid t0 p (S (length bs)) /\ alarm d = Some (expiry d) /\
  live d = true /\ period d = p /\ released d = 0%nat.
Proof.
  intros p t0 bs. rewrite <- (sched_log_length bs (create p t0, t0)).
  apply any_use_expiry, no_release_sched.
Qed.

(* One record per wait; the first wait is called when the first body ends,
   every later one when the body that follows the previous return ends. *)
Theorem C16_call_times : forall p t0 bs,
  let log := wait_log (create p t0, t0) (sched bs) in
  length log = length bs /\
  (forall c r b, nth_error log 0 = Some (c, r) -> nth_error bs 0 = Some b -> c = t0 + b) /\
  (forall i c r c' r' b,
     nth_error log i = Some (c, r) -> nth_error log (S i) = Some (c', r') ->
     nth_error bs (S i) = Some b -> c' = r + b).
Proof.
  exact (fun p t0 bs => conj (sched_log_length bs (create p t0, t0))
                             (conj (sched_first_call bs (create p t0, t0))
                                   (sched_next_call bs (create p t0, t0)))).
Qed.

(* The (i+1)-th wait returns at max(t_call, t0 + (i+1)*p), hence never before
   its grid point. *)
Theorem C16_never_early : forall p t0 bs i c r,
  nth_error (wait_log (create p t0, t0) (sched bs)) i = Some (c, r) ->
  r = Z.max c (grid t0 p (S i)) /\ grid t0 p (S i) <= r.
Proof.
  intros p t0 bs i c r H. destruct (sched_on_grid p t0 bs i c r H) as (M & E & _). exact (conj M E).
Qed.

(* If the body had finished by the grid point, the wait returns exactly there. *)
Theorem C16_exact_when_on_time : forall p t0 bs i c r,
  nth_error (wait_log (create p t0, t0) (sched bs)) i = Some (c, r) ->
  c <= grid t0 p (S i) -> r = grid t0 p (S i).
Proof. exact (fun p t0 bs i c r H => proj1 (proj2 (proj2 (sched_on_grid p t0 bs i c r H)))). Qed.

(* The grid does not move after an overrun: a wait k that is called on time
   returns exactly at the ORIGINAL grid point t0 + (k+1)*p, however late the
   waits before it were -- the instance of C16_exact_when_on_time at k; the
   hypotheses about the late waits j .. k-1 describe the situation, nothing in
   the conclusion depends on them. *)
Theorem C16_catches_up : forall p t0 bs j cj rj k ck rk,
  let log := wait_log (create p t0, t0) (sched bs) in
  (j < k)%nat ->
  nth_error log j = Some (cj, rj) -> grid t0 p (S j) < cj ->
  (forall m cm rm, (j < m < k)%nat -> nth_error log m = Some (cm, rm) -> grid t0 p (S m) < cm) ->
  nth_error log k = Some (ck, rk) -> ck <= grid t0 p (S k) ->
  rk = grid t0 p (S k).
Proof.
  exact (fun p t0 bs j cj rj k ck rk _ _ _ _ Hk => C16_exact_when_on_time p t0 bs k ck rk Hk).
Qed.

(* How fast: lateness (return time minus grid point, never negative) obeys
   late' = max 0 (late + body - p) ... *)
Theorem C16_lateness_step : forall p t0 bs i rec rec' b,
  let log := wait_log (create p t0, t0) (sched bs) in
  nth_error log i = Some rec -> nth_error log (S i) = Some rec' ->
  nth_error bs (S i) = Some b ->
  0 <= lateness t0 p i rec /\
  lateness t0 p (S i) rec' = Z.max 0 (lateness t0 p i rec + b - p).
Proof.
  exact (fun p t0 bs i rec rec' b H H' Hb =>
           conj (lateness_nonneg p t0 bs i rec H) (lateness_step p t0 bs i rec rec' b H H' Hb)).
Qed.

(* ... so if every body after wait j leaves a slack of delta >= 0, the
   lateness shrinks by delta per iteration until it is zero and never grows
   (delta = 0: bodies that just fit never let the loop drift further). *)
Theorem C16_catch_up_bound : forall p t0 bs delta j recj m reck,
  let log := wait_log (create p t0, t0) (sched bs) in
  0 <= delta ->
  nth_error log j = Some recj -> nth_error log (j + m) = Some reck ->
  (forall i b, (j < i <= j + m)%nat -> nth_error bs i = Some b -> b <= p - delta) ->
  lateness t0 p (j + m) reck <= Z.max 0 (lateness t0 p j recj - Z.of_nat m * delta).
Proof.
  exact (fun p t0 bs delta j recj m reck Hd Hj Hk Hb =>
           catch_up_bound p t0 bs delta j recj Hd Hj m reck Hk Hb).
Qed.

(* After free() -- or __del__, or __exit__ of the with-statement with or
   without an exception: [rel] is ANY of them --, whatever happened before and
   whatever happens after -- further waits, bodies, repeated free()/with-exit:
   every wait returns at the instant it is called, the HAL holds no alarm, and
   the handle has been released exactly once. *)
Theorem C16_freed : forall p t0 pre rel post,
  is_free rel = true ->
  let s := final (create p t0, t0) (pre ++ [rel]) in
  (forall c r, In (c, r) (wait_log s post) -> r = c) /\
  live (fst (final s post)) = false /\
  alarm (fst (final s post)) = None /\
  released (fst (final s post)) = 1%nat.
Proof.
  intros p t0 pre rel post Hrel.
  destruct (after_release p t0 pre rel post Hrel) as (A & _ & E & W).
  cbv zeta. rewrite E. exact (conj W A).
Qed.

(* `with NotifierDelay(..) as d: block`, for ANY block (any bodies and waits,
   also free() inside it), left in ANY way h -- the block ends, break, return,
   or an exception of any class raised in the block --, followed by ANY further
   use [post] of the object:
   (1) when the statement is left the object has dropped the handle, the
       notifier is stopped (no alarm), the handle has been released exactly
       once, and __exit__ took no FPGA time;
   (2) every later wait() returns at the instant it is called;
   (3) it stays so (never re-armed, never released a second time);
   (4) the clock afterwards moves by the bodies only (no wait blocks);
   (5) this __exit__ lets an exception out exactly when the block raised one
       (it does not swallow it). *)
Theorem C16_with_block : forall p t0 block h post,
  let s0 := (create p t0, t0) in
  let s := final s0 (block ++ [leave_with h]) in
  (live (fst s) = false /\ alarm (fst s) = None /\ released (fst s) = 1%nat /\
   snd s = snd (final s0 block)) /\
  (forall c r, In (c, r) (wait_log s post) -> r = c) /\
  (live (fst (final s post)) = false /\ alarm (fst (final s post)) = None /\
   released (fst (final s post)) = 1%nat) /\
  snd (final s post) = snd s + bodies post /\
  exit_log s0 (block ++ [leave_with h]) =
    exit_log s0 block ++ [match h with Raised _ => true | _ => false end].
Proof.
  intros p t0 block h post.
  destruct (after_release p t0 block (leave_with h) post eq_refl) as ((L & A & R) & C & E & W).
  cbv zeta. rewrite E, exit_log_app.
  repeat split; try assumption. f_equal. destruct h; reflexivity.
Qed.

(* For every operation list and every state: the i-th __exit__ lets an
   exception out of the with-statement iff it received one. *)
Theorem C16_exit_never_swallows : forall ops s,
  exit_log s ops = map is_raised (exit_infos ops).
Proof. exact exit_log_spec. Qed.

(* For every operation list: the handle is released once if free() or an
   __exit__ (with or without exception) occurs at all and never otherwise; the
   object is live exactly until the first of them. *)
Theorem C16_released_once : forall p t0 ops,
  let d := fst (final (create p t0, t0) ops) in
  released d = (if existsb is_free ops then 1 else 0)%nat /\
  live d = negb (existsb is_free ops).
Proof.
  intros p t0 ops. pose proof (final_live ops (create p t0, t0)) as L.
  exact (conj (proj1 (rel_inv_released _ _ (final_rel_inv ops (create p t0, t0) (create_rel_inv p t0)) L)) L).
Qed.

(* Period conversion, model level: any real (rational) number of microseconds
   within half a microsecond of the integer n converts to exactly n ... *)
Theorem C16_period_whole_us : forall (n : Z) (P : Q),
  (Qabs (P * inject_Z 1000000 - inject_Z n) < 1 # 2)%Q -> period_us P = n.
Proof. exact period_whole_us. Qed.

(* ... and the constructor, given such a P of at least 1 ms, builds the object
   all theorems above speak about; below 1 ms it raises. *)
Theorem C16_constructor : forall (n : Z) (P : Q) (t0 : Z),
  ((1 # 1000 <= P)%Q ->
   (Qabs (P * inject_Z 1000000 - inject_Z n) < 1 # 2)%Q ->
   create_opt P t0 = Some (create n t0)) /\
  (create_opt P t0 = None <-> (P < 1 # 1000)%Q).
Proof.
  exact (fun n P t0 => conj (create_from_seconds n P t0) (create_opt_rejects P t0)).
Qed.

(* __enter__ returns the object itself and changes nothing: not the object
   (in particular not its expiry: the grid is NOT re-anchored at the instant the
   with-block is entered), not the HAL's alarm, not the clock -- in every state,
   live or released. *)
Theorem C16_enter_changes_nothing :
  (forall d, enter d = (d, true)) /\ (forall s, step s Enter = s).
Proof. exact (conj enter_is_identity step_enter). Qed.

(* Hence __enter__ is invisible wherever and however often it occurs, in ANY
   operation list (with releases or not) from ANY state: removing every Enter
   changes neither the final object and clock, nor the log of the waits, nor
   what comes out of the __exit__s; the snapshot an observer takes right after
   an __enter__ is the one before it; every __enter__ returns the object. *)
Theorem C16_enter_transparent : forall s ops,
  final s (without_enter ops) = final s ops /\
  wait_log s (without_enter ops) = wait_log s ops /\
  exit_log s (without_enter ops) = exit_log s ops /\
  snaps s (Enter :: ops) = snap_of s :: snaps s ops /\
  enter_log s ops = map (fun _ => true) (filter is_enter ops).
Proof.
  intros s ops. destruct (without_enter_same ops s) as (F & W & X).
  exact (conj F (conj W (conj X (conj (snaps_enter s ops) (enter_log_spec ops s))))).
Qed.

(* The grid under ANY use that does not release the object -- bodies, waits and
   __enter__ in any order and number: set-up work before the with-block is
   entered, several bodies or none between two waits, the block entered twice
   ...: the (i+1)-th wait returns at max(t_call, t0 + (i+1)*p) with t0 the
   instant of CONSTRUCTION: never early, exactly on the grid point when called
   by then, at once when called later. *)
Theorem C16_any_use_on_grid : forall p t0 ops i c r,
  no_release ops = true ->
  nth_error (wait_log (create p t0, t0) ops) i = Some (c, r) ->
  r = Z.max c (grid t0 p (S i)) /\ grid t0 p (S i) <= r /\
  (c <= grid t0 p (S i) -> r = grid t0 p (S i)) /\
  (grid t0 p (S i) <= c -> r = c).
Proof. exact any_use_on_grid. Qed.

(* ... and after it the alarm the HAL holds is the grid point after the last
   wait, the object is live, its period unchanged, nothing released. *)
Theorem C16_any_use_expiry : forall p t0 ops,
  no_release ops = true ->
  let d := fst (final (create p t0, t0) ops) in
  expiry d = grid t0 p (S (length (wait_log (create p t0, t0) ops))) /\
  alarm d = Some (expiry d) /\ live d = true /\ period d = p /\ released d = 0%nat.
Proof. exact any_use_expiry. Qed.

(* `d = NotifierDelay(P)` at t0; set-up work of ANY duration; `with d:` around
   the loop: the (i+1)-th wait returns at max(t_call, t0 + (i+1)*p) -- the grid
   of the construction instant, not of the instant the block is entered; and
   (non-empty loop) log, object and clock are exactly those of the plain loop
   whose first body is longer by the set-up time, so every theorem about
   [sched] above speaks about this use too. *)
Theorem C16_entered_late : forall p t0 setup,
  (forall bs i c r,
     nth_error (wait_log (create p t0, t0) (entered_late setup bs)) i = Some (c, r) ->
     r = Z.max c (grid t0 p (S i)) /\ grid t0 p (S i) <= r /\
     (c <= grid t0 p (S i) -> r = grid t0 p (S i)) /\
     (grid t0 p (S i) <= c -> r = c)) /\
  (forall b bs,
     wait_log (create p t0, t0) (entered_late setup (b :: bs)) =
       wait_log (create p t0, t0) (sched ((setup + b) :: bs)) /\
     final (create p t0, t0) (entered_late setup (b :: bs)) =
       final (create p t0, t0) (sched ((setup + b) :: bs))).
Proof.
  exact (fun p t0 setup =>
           conj (fun bs i c r => any_use_on_grid p t0 _ i c r (no_release_entered_late setup bs))
                (entered_late_is_sched p t0 setup)).
Qed.

(* Release while a wait() is in progress (two threads). *)

(* The two-thread model extends the sequential one: a sequential use, seen as
   a history in which each wait() runs its two halves with nothing in between,
   ends in the same object at the same time, with the same log and no
   exception -- so every theorem above speaks about these histories. *)
Theorem C16_two_threads_extend_sequential : forall p t0 ops,
  let s0 := cinit (create p t0) t0 in
  crun s0 (seq_cops ops) =
    mkC (fst (final (create p t0, t0) ops)) (snd (final (create p t0, t0) ops)) None false /\
  clog s0 (seq_cops ops) =
    map (fun r : Z * Z => (fst r, snd r, false)) (wait_log (create p t0, t0) ops).
Proof.
  exact (fun p t0 ops => conc_extends_seq ops (create p t0) t0 false (create_rel_inv p t0)).
Qed.

(* In ANY history of the two threads -- releases anywhere, also between the
   halves of a wait(), repeated, well bracketed or not -- no wait() is ever left
   by an exception. *)
Theorem C16_wait_never_raises : forall p t0 h c t e,
  In (c, t, e) (clog (cinit (create p t0) t0) h) -> e = false.
Proof. exact conc_never_raises. Qed.

(* In ANY such history the handle is released exactly once if some thread
   releases at all (never a second time, also not by the second half of a wait()
   that was in progress), never otherwise; the object is live exactly until
   then; once released the HAL holds no alarm (the interrupted wait() does not
   re-arm the dead handle). *)
Theorem C16_two_threads_released_once : forall p t0 h,
  let d := c_obj (crun (cinit (create p t0) t0) h) in
  released d = (if existsb crel h then 1 else 0)%nat /\
  live d = negb (existsb crel h) /\
  (existsb crel h = true -> alarm d = None).
Proof.
  intros p t0 h. pose proof (crun_live h (cinit (create p t0) t0)) as L.
  destruct (rel_inv_released _ _ (crun_rel_inv h (cinit (create p t0) t0) (create_rel_inv p t0)) L) as [R A].
  exact (conj R (conj L A)).
Qed.

(* THE SHUTDOWN.  After ANY history [pre] that leaves the object live and no
   wait() in progress, the loop thread calls wait() at clock c (however far
   ahead its grid point is); while it is inside the HAL call the other thread
   lets any time pass ([mid]: bodies, __enter__), then releases the object
   ([rel]: free(), __del__, __exit__ with or without an exception), possibly
   several times ([zs]); then the HAL call returns.  Then:
   (1) that wait() is left at the instant of the release, c + the time that
       passed -- not at its grid point --, by returning, not by an exception;
   (2) the clock is that instant;  (3) the object has dropped the handle, the
       HAL holds no alarm, the handle has been released exactly once;
   (4) no wait() is in progress, the history has not left the model;
   (5) whatever follows ([post], by both threads): every wait() is left at the
       instant it is called, without exception;  (6) and it stays released,
       exactly once, without alarm. *)
Theorem C16_release_during_wait : forall p t0 pre mid rel zs post,
  let s0 := cinit (create p t0) t0 in
  let s1 := crun s0 pre in
  let h := pre ++ [WaitBegin] ++ mid ++ [Other rel] ++ zs ++ [WaitEnd] in
  let s := crun s0 h in
  c_pend s1 = None -> live (c_obj s1) = true ->
  forallb cquiet mid = true -> is_free rel = true -> forallb cinstant zs = true ->
  clog s0 h = clog s0 pre ++ [(c_now s1, c_now s1 + cbodies mid, false)] /\
  c_now s = c_now s1 + cbodies mid /\
  (live (c_obj s) = false /\ alarm (c_obj s) = None /\ released (c_obj s) = 1%nat) /\
  c_pend s = None /\ c_outside s = c_outside s1 /\
  (forall c t e, In (c, t, e) (clog s post) -> t = c /\ e = false) /\
  (live (c_obj (crun s post)) = false /\ alarm (c_obj (crun s post)) = None /\
   released (c_obj (crun s post)) = 1%nat).
Proof. exact interrupted_wait. Qed.

(* While nobody releases, what the other thread does during a wait() does not
   disturb the grid: in ANY well-bracketed release-free history the (i+1)-th
   wait() is left, without exception, at max(c', t0 + (i+1)*p), c' being the
   instant at which its second half runs (= the call time of the (i+1)-th wait
   of the sequential use [lin h]): never before the grid point ... *)
Theorem C16_two_threads_on_grid : forall p t0 h i c t e,
  cwf false h = true -> existsb crel h = false ->
  nth_error (clog (cinit (create p t0) t0) h) i = Some (c, t, e) ->
  e = false /\ grid t0 p (S i) <= t /\
  exists c', nth_error (wait_log (create p t0, t0) (lin h)) i = Some (c', t) /\
             t = Z.max c' (grid t0 p (S i)).
Proof. exact conc_any_use_on_grid. Qed.

(* ... and afterwards the alarm is the grid point after the last wait(). *)
Theorem C16_two_threads_expiry : forall p t0 h,
  cwf false h = true -> existsb crel h = false ->
  let s := crun (cinit (create p t0) t0) h in
  expiry (c_obj s) = grid t0 p (S (length (clog (cinit (create p t0) t0) h))) /\
  alarm (c_obj s) = Some (expiry (c_obj s)) /\ live (c_obj s) = true /\
  period (c_obj s) = p /\ released (c_obj s) = 0%nat.
Proof. exact conc_any_use_expiry. Qed.

(* Non-vacuity. *)

(* period 20 ms, built at t0 = 0.5 s; bodies 5 ms, 50 ms (overrun), 1 ms,
   1 ms, 20 ms, 0: the second wait is 30 ms late, the third still 11 ms late,
   the fourth is back on the original grid (580 ms = t0 + 4*20 ms). *)
Example C16_nv_log :
  wait_log (create 20000 500000, 500000) (sched [5000; 50000; 1000; 1000; 20000; 0])
  = [(505000, 520000); (570000, 570000); (571000, 571000); (572000, 580000);
     (600000, 600000); (600000, 620000)].
Proof. vm_compute. reflexivity. Qed.

(* the hypotheses of C16_catches_up hold on it with j = 1, k = 3 *)
Example C16_nv_catches_up :
  let log := wait_log (create 20000 500000, 500000) (sched [5000; 50000; 1000; 1000; 20000; 0]) in
  nth_error log 1 = Some (570000, 570000) /\ grid 500000 20000 2 < 570000 /\
  nth_error log 2 = Some (571000, 571000) /\ grid 500000 20000 3 < 571000 /\
  nth_error log 3 = Some (572000, 580000) /\ 572000 <= grid 500000 20000 4 /\
  grid 500000 20000 4 = 580000.
Proof. vm_compute. repeat split; intro; discriminate. Qed.

(* free twice, then leave the with-block, with waits in between *)
Example C16_nv_freed :
  let s0 := (create 20000 500000, 500000) in
  wait_log s0 ([Body 1000; Wait; Body 3000; Free; Wait; Free; Body 7000; Wait; Exit None])
  = [(501000, 520000); (523000, 523000); (530000, 530000)] /\
  released (fst (final s0 [Body 1000; Wait; Body 3000; Free; Wait; Free; Body 7000; Wait; Exit None])) = 1%nat.
Proof. vm_compute. split; reflexivity. Qed.

(* a with-block of two iterations left by KeyboardInterrupt while the next
   alarm (t0 + 3*20 ms) is still 15 ms away; a wait 1 ms later returns at once
   (had the notifier stayed armed it would have blocked until 560000), the
   later explicit free() releases nothing more, the exception came out *)
Example C16_nv_with_block :
  let s0 := (create 20000 500000, 500000) in
  let ops := [Body 5000; Wait; Body 20000; Wait; Body 5000] ++ [leave_with (Raised KeyboardInt)]
             ++ [Body 1000; Wait; Free; Wait] in
  wait_log s0 ops = [(505000, 520000); (540000, 540000); (546000, 546000); (546000, 546000)] /\
  snaps s0 ops = [(520000, Some 540000, 0%nat); (540000, Some 560000, 0%nat); (545000, None, 1%nat);
                  (546000, None, 1%nat); (546000, None, 1%nat); (546000, None, 1%nat)] /\
  exit_log s0 ops = [true].
Proof. vm_compute. repeat split; reflexivity. Qed.

(* period 20 ms, built at t0 = 0.5 s, the with-block entered 7 ms later, bodies
   5 ms, 50 ms (overrun), 1 ms, 1 ms: the first wait returns at t0 + 20 ms
   (NOT 20 ms after the entry, 527000), the fourth at t0 + 4*20 ms; the HAL's
   alarm is untouched by the entry; the block is then left by an exception and
   a later wait returns at once.  Second: entered 30 ms (> one period) after
   construction: the first wait is late and returns at once, the second at
   t0 + 2*20 ms. *)
Example C16_nv_entered_late :
  let s0 := (create 20000 500000, 500000) in
  let ops := entered_late 7000 [5000; 50000; 1000; 1000] in
  no_release ops = true /\
  wait_log s0 ops = [(512000, 520000); (570000, 570000); (571000, 571000); (572000, 580000)] /\
  snaps s0 (ops ++ [leave_with (Raised RuntimeErr); Body 100; Wait])
    = [(507000, Some 520000, 0%nat);
       (520000, Some 540000, 0%nat); (570000, Some 560000, 0%nat); (571000, Some 580000, 0%nat);
       (580000, Some 600000, 0%nat); (580000, None, 1%nat); (580100, None, 1%nat)] /\
  enter_log s0 ops = [true] /\
  wait_log s0 (entered_late 30000 [0; 1000]) = [(530000, 530000); (531000, 540000)].
Proof. vm_compute. repeat split; reflexivity. Qed.

(* the double nearest to 0.001001 s is 4616297704445815 / 2^62, just BELOW
   1001 us: it is within half a microsecond of 1001, rounds to 1001, and the
   constructor accepts it -- while truncation (the code before the D8 repair)
   gave 1000, putting the k-th wait k microseconds before t0 + k*P. *)
Example C16_nv_period :
  let P := (4616297704445815 # 4611686018427387904)%Q in
  (Qabs (P * inject_Z 1000000 - inject_Z 1001) < 1 # 2)%Q /\ (1 # 1000 <= P)%Q /\
  (P * inject_Z 1000000 < inject_Z 1001)%Q /\
  period_us P = 1001 /\ period_us_int P = 1000 /\
  create_opt P 0 = Some (create 1001 0).
Proof. vm_compute. repeat split; try reflexivity; intro; discriminate. Qed.

Example C16_nv_rejected : create_opt (999 # 1000000) 0 = None.
Proof. reflexivity. Qed.

(* period 20 ms, built at t0 = 0.5 s.  One iteration on the grid; the second
   wait() is called at 523 ms (grid point 540 ms); 4 ms later, while it is
   blocked, the other thread calls free(): the wait() is left at 527 ms, not at
   540 ms, by returning; later waits (in halves, whole) return at once; the
   with-block's __exit__ afterwards releases nothing more.  The hypotheses of
   C16_release_during_wait hold (pre, mid = 4 ms, rel = zs = free()). *)
Example C16_nv_release_during_wait :
  let s0 := cinit (create 20000 500000) 500000 in
  let pre := [Other (Body 5000); WaitBegin; WaitEnd; Other (Body 3000)] in
  let h := pre ++ [WaitBegin] ++ [Other (Body 4000)] ++ [Other Free] ++ [Other Free] ++ [WaitEnd] in
  let post := [Other (Body 100); WaitBegin; Other (Body 50); WaitEnd; Other Wait; Other (Exit None)] in
  c_pend (crun s0 pre) = None /\ live (c_obj (crun s0 pre)) = true /\
  clog s0 (h ++ post) = [(505000, 520000, false); (523000, 527000, false);
                         (527100, 527100, false); (527150, 527150, false)] /\
  csnaps s0 (h ++ post) = [(520000, Some 540000, 0%nat); (527000, None, 1%nat); (527000, None, 1%nat);
                           (527000, None, 1%nat); (527150, None, 1%nat); (527150, None, 1%nat);
                           (527150, None, 1%nat)] /\
  c_outside (crun s0 (h ++ post)) = false.
Proof. vm_compute. repeat split; reflexivity. Qed.

(* "without exception" is not vacuous: the second half of wait() IS left by an
   exception when it is given None as the handle -- which is what re-reading
   self._notifier after the release yields, instead of the handle the first half
   had read *)
Example C16_nv_none_handle_raises :
  let d := free (create 20000 500000) in
  snd (wait_end d (live d) 527000) = true /\ snd (wait_end d true 527000) = false.
Proof. vm_compute. split; reflexivity. Qed.

(* no release: while the loop thread is inside its second wait() the other
   thread spends 4 ms and enters a with-block on the object; the wait() is left
   on its grid point 540 ms and the next alarm is 560 ms *)
Example C16_nv_two_threads_on_grid :
  let s0 := cinit (create 20000 500000) 500000 in
  let h := [Other (Body 5000); WaitBegin; WaitEnd; Other (Body 3000); WaitBegin; Other (Body 4000);
            Other Enter; WaitEnd; Other (Body 30000); WaitBegin; Other (Body 1000); WaitEnd] in
  cwf false h = true /\ existsb crel h = false /\
  clog s0 h = [(505000, 520000, false); (523000, 540000, false); (570000, 571000, false)] /\
  lin h = [Body 5000; Wait; Body 3000; Body 4000; Enter; Wait; Body 30000; Body 1000; Wait] /\
  alarm (c_obj (crun s0 h)) = Some 580000.
Proof. vm_compute. repeat split; reflexivity. Qed.

(* The float part of the constructor: `round(delay_period * 1e6)` in IEEE doubles (Delay/FloatPeriod.v).
   For every period of a whole number z of microseconds from 1 ms up to 2 s, written as the double nearest to z / 10^6
   (what the literal 0.02, 0.001001 ... is), the expression yields exactly z: the model's integer period P of the theorems
   above IS what the float code computes.  (One vm_compute over the kernel's primitive floats visits every whole number
   below 2^21 -- every double of 1 to 21 significant bits -- as a trie over its bits; 1 ms to 2 s lies inside.  From
   2^21 us, 2.09 s, upwards nothing is proved.) *)
Theorem C16_period_in_microseconds_is_exact : forall z : Z, (1000 <= z < 2001000)%Z -> okz z = true.
Proof. exact round_is_exact. Qed.
(* what the statement excludes: truncation instead of rounding (the code before the D8 repair) loses a microsecond *)
Example C16_nv_truncation_is_not_exact : okt 1001 = false /\ okz 1001 = true.
Proof. exact truncation_loses_a_microsecond. Qed.

Print Assumptions C16_expiry_on_grid.
Print Assumptions C16_call_times.
Print Assumptions C16_never_early.
Print Assumptions C16_exact_when_on_time.
Print Assumptions C16_catches_up.
Print Assumptions C16_lateness_step.
Print Assumptions C16_catch_up_bound.
Print Assumptions C16_freed.
Print Assumptions C16_with_block.
Print Assumptions C16_exit_never_swallows.
Print Assumptions C16_released_once.
Print Assumptions C16_period_whole_us.
Print Assumptions C16_constructor.
Print Assumptions C16_enter_changes_nothing.
Print Assumptions C16_enter_transparent.
Print Assumptions C16_any_use_on_grid.
Print Assumptions C16_any_use_expiry.
Print Assumptions C16_entered_late.
Print Assumptions C16_two_threads_extend_sequential.
Print Assumptions C16_wait_never_raises.
Print Assumptions C16_two_threads_released_once.
Print Assumptions C16_release_during_wait.
Print Assumptions C16_two_threads_on_grid.
Print Assumptions C16_two_threads_expiry.
Print Assumptions C16_period_in_microseconds_is_exact.
