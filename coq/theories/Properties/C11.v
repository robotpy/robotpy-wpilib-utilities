(* C11 -- @feedback methods are published every iteration in every mode under their key.

   Loop part: Robot.Model ([PFeedback j] is  try: v = getter() except: onException()
   else: setter(v) ; [w_nt w j] the NetworkTables entry of feedback j).  Key and topic
   type: Tunable.Model ([fb_key], [fb_owner_key], [fb_publisher]: the decorator and
   collect_feedbacks).  Statements; the proofs are in Robot/ and Tunable/. *)
From Coq Require Import ZArith List Bool String.
From RV Require Import Robot.Model Robot.Proofs Robot.Loop Robot.Lifecycle Robot.Examples.
From RV Require Tunable.Model Tunable.Proofs.
Notation fb_key := Tunable.Model.fb_key.
Notation fb_owner_key := Tunable.Model.fb_owner_key.
Notation fb_publisher := Tunable.Model.fb_publisher.
Notation OComponent := Tunable.Model.OComponent.
Notation ORobot := Tunable.Model.ORobot.
Notation spec_hint := Tunable.Model.spec_hint.
Notation FbGeneric := Tunable.Model.FbGeneric.
Notation FbRaises := Tunable.Model.FbRaises.
Notation FbTyped := Tunable.Model.FbTyped.
Notation NRaw := Tunable.Model.NRaw.
Import ListNotations.
Open Scope Z_scope.

Section C11.
Variable c : cfg.
Variable raises : nat -> bool.
Variable writes : nat -> list (nat * nat * Z).
Variable fbval : nat -> Z.

(* in every mode (disabled, autonomous, teleop, test) each getter occurs exactly once in the
   specified call sequence of a pass (that the robot makes that sequence is C05/C07) *)
Theorem C11_called_once_per_iteration : forall m j, (j < nfb c)%nat ->
  count_occ site_eq_dec (iter_sites c m) (SFeedback j) = 1%nat.
Proof. exact (feedback_once_per_iteration c). Qed.

(* after the feedback phase of a pass that starts at invocation [w_n w] (FMS attached): the
   entry of every getter that returned holds the value it returned in THIS pass; the entry of
   a getter that raised is exactly what it was; no other entry is touched; and every getter
   was called (the invocation counter advanced by nfb) *)
Theorem C11_entries_after_the_feedback_phase : forall w, in_flight w = false -> w_fms w = true ->
  let '(w', e) := denote c raises writes fbval (pseq (map PFeedback (seq 0 (nfb c)))) w in
  in_flight w' = false /\ w_n w' = (w_n w + nfb c)%nat /\ w_ntmode w' = w_ntmode w /\
  forall j, w_nt w' j =
    if (0 <=? j)%nat && (j <? 0 + nfb c)%nat
    then (if raises (w_n w + (j - 0)) then w_nt w j else Some (fbval (w_n w + (j - 0))))
    else w_nt w j.
Proof. exact (fun w => feedbacks_run c raises writes fbval (nfb c) 0%nat w). Qed.

(* _do_periodics is the feedback phase, then robotPeriodic under its guard (where it stands in
   a pass, after the components in every mode: C05_iteration_order) *)
Theorem C11_feedbacks_then_robot_periodic :
  do_periodics c = pseq [ pseq (map PFeedback (seq 0 (nfb c))); PGuard (PInvoke SRobotPeriodic) ].
Proof. exact eq_refl. Qed.
End C11.

(* key = the explicit key= argument, else the method name with ONE leading "get_" removed *)
Theorem C11_key_explicit : forall k name, fb_key (Some k) name = k.
Proof. exact Tunable.Proofs.C11_key_explicit. Qed.
Theorem C11_key_strips_get : forall r, fb_key None ("get_" ++ r) = r.
Proof. exact Tunable.Proofs.C11_key_strips_get. Qed.
Theorem C11_key_characterised : forall name k,
  fb_key None name = k <-> (name = "get_" ++ k)%string \/ ((forall r, name <> "get_" ++ r)%string /\ name = k).
Proof. exact Tunable.Proofs.C11_key_char. Qed.
(* the entry is /components/<name>/<key> or /robot/<key> *)
Theorem C11_entry_of_component : forall N e name,
  fb_owner_key (OComponent N) e name = ("/components/" ++ N ++ "/" ++ fb_key e name)%string.
Proof. exact Tunable.Proofs.C11_topic_key_component. Qed.
Theorem C11_entry_of_robot : forall e name, fb_owner_key ORobot e name = ("/robot/" ++ fb_key e name)%string.
Proof. exact Tunable.Proofs.C11_topic_key_robot. Qed.
(* the topic type follows the return annotation, or is inferred from the value when there is none *)
Theorem C11_topic_type : forall ann,
  fb_publisher ann =
  match ann with
  | None => FbGeneric
  | Some a => match spec_hint a with
              | None => FbGeneric
              | Some NRaw => FbRaises
              | Some t => FbTyped t
              end
  end.
Proof. exact Tunable.Proofs.C11_topic_type. Qed.

(* Non-vacuity: in the first teleop pass of the example getters 0 and 2 raise: robotPeriodic of
   that pass sees entry 1 fresh (15) and entries 0 and 2 as they were (4 and 6) *)
Example C11_nv :
  map (fun e => match e with EvRP m fb _ => (m, fb) | _ => (None, []) end)
      (firstn 2 (filter (fun e => match e with EvRP _ _ _ => true | _ => false end) (snd (ex_run true))))
  = [ (Some Disabled, [Some 4; Some 5; Some 6]); (Some Teleop, [Some 4; Some 15; Some 6]) ].
Proof. vm_compute. reflexivity. Qed.

Print Assumptions C11_called_once_per_iteration.
Print Assumptions C11_entries_after_the_feedback_phase.
Print Assumptions C11_feedbacks_then_robot_periodic.
Print Assumptions C11_key_explicit.
Print Assumptions C11_key_strips_get.
Print Assumptions C11_key_characterised.
Print Assumptions C11_entry_of_component.
Print Assumptions C11_entry_of_robot.
Print Assumptions C11_topic_type.
