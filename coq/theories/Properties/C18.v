(* C18 -- units.convert is consistent (identity, there-and-back, composition)
   and linear for user-defined unit chains of ANY depth; the built-in table
   means 100 cm per metre, 0.3048 m per foot, 12 inches per foot; the MaxSonar
   drivers report period / 147 us inches resp. voltage / 4.9 mV centimetres in
   the requested unit; the REV pressure sensor reports 250 V / Vcc - 25, never
   raises, and reports p after calibrate(p) at the calibration voltage.
   The proofs are in Units.Proofs: a statement here is closed by its lemma
   there, or follows in a line or two from a more general one
   (C18_calibrated_general).  The examples at the end are evaluated, except
   that the links of C18_nv_deep and C18_nv_affine qualify by
   [scale_link_scaling] and [affine_link_inverse].

   Numbers are exact rationals ([==] is equality of values); float rounding is
   not modelled (the correspondence run compares the implementation's doubles
   with this model to a relative 1e-12).

   A unit is the chain of Unit objects from itself up to (excluding) the
   ultimate base unit; [link] = the two callables of one Unit.
   [link_inverse l]: unit_to_base and base_to_unit of l are mutually inverse;
   [link_linear l]: both are linear; [link_scaling l]: they are x |-> k x and
   x |-> x / k for some k <> 0 (which implies the other two).

   [T] in Section Builtin is the unit table of the implementation as
   REGENERATED on every run from the imported module (work/C18/Gen_units.v:
   parent links and the factors unit_to_base(1), base_to_unit(1)); the
   hypothesis [units_ok T = true] is re-proved for it by computation.
   [K] in Sections Builtin and PressureSensor is the record of the literals of the two
   sensor drivers (divisors and source units of the sonar get() methods; scale,
   offset, floor and except-value of pressure; floor, slope and offset of
   calibrate), REGENERATED on every run from the source files
   (work/C18/Gen_sensors.v); [consts_ok K = true] -- they have the documented
   values 0.000147 s/inch, 0.0049 V/cm, 250, 25, 0.00001 V, 0, 0.004, 0.1 -- is
   re-proved for it by computation. *)
From Coq Require Import QArith List.
From RV Require Import Units.Model Units.Proofs.
Import ListNotations.
Open Scope Q_scope.

(* ---------------- any chains, any depth --------------------------- *)

Theorem C18_same_unit : forall (u : list link) (x : Q),
  Forall link_inverse u -> convert u u x == x.
Proof. exact same_unit. Qed.

Theorem C18_there_and_back : forall (a b : list link) (x : Q),
  Forall link_inverse a -> Forall link_inverse b ->
  convert b a (convert a b x) == x.
Proof. exact there_and_back. Qed.

(* a -> b -> c equals a -> c.  The code never compares roots and neither does
   this statement: it holds for any three chains, in particular for three
   units below the same ultimate base unit. *)
Theorem C18_composition : forall (a b c : list link) (x : Q),
  Forall link_inverse b -> Forall link_proper c ->
  convert b c (convert a b x) == convert a c x.
Proof. exact composition. Qed.

Theorem C18_linear : forall (a b : list link),
  Forall link_linear a -> Forall link_linear b ->
  (forall x y, convert a b (x + y) == convert a b x + convert a b y) /\
  (forall c x, convert a b (c * x) == c * convert a b x).
Proof. exact linear. Qed.

(* links of the form x |-> k x / x |-> x / k (k <> 0) meet both hypotheses *)
Theorem C18_scaling_links_qualify : forall l : link,
  link_scaling l -> link_inverse l /\ link_linear l.
Proof. exact (fun l H => conj (scaling_inverse l H) (scaling_linear l H)). Qed.

(* The same four facts for units given as objects with base_unit pointers
   (a table of any size and shape; roots carry unused callables).  A
   conversion whose `while` loops terminate returns [Val _]. *)
Theorem C18_table_same_unit : forall tbl u x y,
  table_links_inverse tbl -> convert_tbl tbl u u x = Val y -> y == x.
Proof. exact tbl_same_unit. Qed.

Theorem C18_table_there_and_back : forall tbl a b x y,
  table_links_inverse tbl -> convert_tbl tbl a b x = Val y ->
  exists z, convert_tbl tbl b a y = Val z /\ z == x.
Proof. exact tbl_there_and_back. Qed.

Theorem C18_table_composition : forall tbl a b c x y z,
  table_links_inverse tbl ->
  convert_tbl tbl a b x = Val y -> convert_tbl tbl b c y = Val z ->
  exists w, convert_tbl tbl a c x = Val w /\ z == w.
Proof. exact tbl_composition. Qed.

Theorem C18_table_linear : forall tbl a b x1 x2 c y1 y2,
  table_links_linear tbl ->
  convert_tbl tbl a b x1 = Val y1 -> convert_tbl tbl a b x2 = Val y2 ->
  (exists s, convert_tbl tbl a b (x1 + x2) = Val s /\ s == y1 + y2) /\
  (exists m, convert_tbl tbl a b (c * x1) = Val m /\ m == c * y1).
Proof. exact tbl_linear. Qed.

(* which callables convert() applies, in which order: unit_to_base of the
   source, of its base, ... up to the root; then base_to_unit from the unit
   next to the root down to the target (this is what the symbolic
   correspondence observes on the real code) *)
Theorem C18_application_order : forall (P : Type) (tbl : list (option nat * P)) a b ca cb,
  chain_of tbl a = Val ca -> chain_of tbl b = Val cb ->
  trace_tbl tbl a b =
  Val (map (fun u => (u, true)) (map fst ca) ++
       map (fun u => (u, false)) (rev (map fst cb))).
Proof. exact (@trace_tbl_shape). Qed.

(* ---------------- re-entrant unit definitions ----------------------
   A user-defined Unit whose callables are themselves written with
   units.convert (yard = Unit(meter, lambda m: convert(meter, inch, m) / 36,
   lambda y: convert(inch, meter, y * 36))), further units hung below it, and
   such definitions nested to any depth.  Each activation of convert() works on
   its own chains: [via_link s d k] is the pair of callables
   y |-> convert d s (y * k)  /  m |-> convert s d m / k.

   A user's module is a definition list [spec]: unit i has base_unit = an
   earlier unit or None and callables [UAffine a b] (x |-> a x + b and its
   inverse) or [UVia s d k] (the above, on earlier units s, d);
   [build_units spec] are the resulting Unit objects, [convert_built] is
   convert() on them, [trace_built] is convert() with the log of every
   callable application, the nested activations' included.
   [spec_ok]: a <> 0 and k <> 0 for every non-root unit; [spec_linear]:
   additionally b = 0. *)

(* a unit defined through convert() qualifies for the generic theorems
   whenever the units it mentions do *)
Theorem C18_reentrant_link : forall (s d : list link) (k : Q), ~ k == 0 ->
  (Forall link_inverse s -> Forall link_inverse d -> link_inverse (via_link s d k)) /\
  (Forall link_linear s -> Forall link_linear d -> link_linear (via_link s d k)).
Proof.
  exact (fun s d k Hk => conj (fun Hs Hd => via_link_inverse s d k Hs Hd Hk)
                              (via_link_linear s d k)).
Qed.

(* so does every unit of a definition list, at any depth of chaining and of
   nesting ... *)
Theorem C18_reentrant_units_qualify : forall spec tbl,
  build_units spec = Val tbl ->
  (spec_ok spec = true -> table_links_inverse (pure_table tbl)) /\
  (spec_linear spec = true -> table_links_linear (pure_table tbl)).
Proof.
  exact (fun spec tbl H => conj (fun Hok => built_inverse spec tbl Hok H)
                                (fun Hok => built_linear spec tbl Hok H)).
Qed.

(* ... hence: same unit, there and back, a -> b -> c = a -> c for every ordered
   triple of such units *)
Theorem C18_reentrant_consistent : forall spec tbl,
  spec_ok spec = true -> build_units spec = Val tbl ->
  (forall u x y, convert_built tbl u u x = Val y -> y == x) /\
  (forall a b x y, convert_built tbl a b x = Val y ->
     exists z, convert_built tbl b a y = Val z /\ z == x) /\
  (forall a b c x y z, convert_built tbl a b x = Val y -> convert_built tbl b c y = Val z ->
     exists w, convert_built tbl a c x = Val w /\ z == w).
Proof. exact built_consistent. Qed.

Theorem C18_reentrant_linear : forall spec tbl a b x1 x2 c y1 y2,
  spec_linear spec = true -> build_units spec = Val tbl ->
  convert_built tbl a b x1 = Val y1 -> convert_built tbl a b x2 = Val y2 ->
  (exists s, convert_built tbl a b (x1 + x2) = Val s /\ s == y1 + y2) /\
  (exists m, convert_built tbl a b (c * x1) = Val m /\ m == c * y1).
Proof. exact built_convert_linear. Qed.

(* units defined in order: every conversion between two of them returns (no
   loop runs forever, nothing raises), whatever the callables nest *)
Theorem C18_reentrant_returns : forall spec tbl a b x,
  build_units spec = Val tbl -> (a < length tbl)%nat -> (b < length tbl)%nat ->
  exists y, convert_built tbl a b x = Val y.
Proof. exact built_convert_returns. Qed.

(* the run that logs returns the number of the run that does not *)
Theorem C18_reentrant_log_value : forall spec tbl a b x,
  build_units spec = Val tbl ->
  match trace_built tbl a b x, convert_built tbl a b x with
  | Val r, Val y => fst r = y
  | Raise e, Raise e' => e = e'
  | Loops, Loops => True
  | _, _ => False
  end.
Proof. exact built_trace_value. Qed.

(* Which callables run, in which order, nested activations included:
   [up_log l] / [down_log l] is what ONE application of unit_to_base /
   base_to_unit of l appends to the log.  convert(a, b, x) appends the logs of
   a's chain in order, then those of b's chain from the root end -- each in one
   piece and for every x: after a nested activation returns, the outer one
   goes on exactly where it was. *)
Theorem C18_reentrant_application_order : forall spec tbl a b x ca cb,
  build_units spec = Val tbl -> chain_of tbl a = Val ca -> chain_of tbl b = Val cb ->
  exists r, trace_built tbl a b x = Val r /\
            snd r = concat (map up_log (llinks ca)) ++ concat (map down_log (rev (llinks cb))).
Proof. exact built_trace_log. Qed.

(* ... where a plain callable logs itself, and a callable that calls convert()
   logs itself followed by the complete log of that conversion *)
Theorem C18_reentrant_callable_log :
  (forall u l, uniform (logged u l) /\
     up_log (logged u l) = [(u, true)] /\ down_log (logged u l) = [(u, false)]) /\
  (forall u s d k, Forall uniform s -> Forall uniform d ->
     uniform (lvia u s d k) /\
     up_log (lvia u s d k) =
       (u, true) :: concat (map up_log d) ++ concat (map down_log (rev s)) /\
     down_log (lvia u s d k) =
       (u, false) :: concat (map up_log s) ++ concat (map down_log (rev d))).
Proof. exact (conj logged_log lvia_log). Qed.

(* ---------------- the built-in table ------------------------------ *)

Section Builtin.
Variable T : ltable.
Hypothesis HT : units_ok T = true.

Theorem C18_constants :
  (exists y, convert_tbl (link_table T) u_meter u_centimeter 1 = Val y /\ y == 100) /\
  (exists y, convert_tbl (link_table T) u_foot u_meter 1 = Val y /\ y == 3048 # 10000) /\
  (exists y, convert_tbl (link_table T) u_foot u_inch 1 = Val y /\ y == 12).
Proof. exact (constants T HT). Qed.

(* all 16 ordered pairs (the matrix is spelled out in C18_nv_factor_matrix) *)
Theorem C18_pairwise_factors : forall a b x,
  In a builtin_units -> In b builtin_units ->
  exists y, convert_tbl (link_table T) a b x = Val y /\
            y == x * metres_per a / metres_per b.
Proof. exact (fun a b x => builtin_factor T a b x HT). Qed.

(* the built-in chains are chains of scaling links, so the generic theorems
   apply to every pair and triple of them *)
Theorem C18_builtin_chains_qualify : forall u, In u builtin_units ->
  exists ch, chain_of (link_table T) u = Val ch /\ Forall link_scaling (map snd ch).
Proof. exact (fun u => builtin_chains_scaling T u HT). Qed.

Variable K : sconsts.
Hypothesis HK : consts_ok K = true.

(* MaxSonarEZPulseWidth.get() / MaxSonarEZAnalog.get() for every output unit *)
Theorem C18_sonar_scale : forall out r, In out builtin_units ->
  (exists y, sonar_pw K (link_table T) out r = Val y /\
             y == (r / (147 # 1000000)) * metres_per u_inch / metres_per out) /\
  (exists y, sonar_an K (link_table T) out r = Val y /\
             y == (r / (49 # 10000)) * metres_per u_centimeter / metres_per out).
Proof. exact (fun out r => sonar_scale T K out r HT HK). Qed.

(* with the default / natural output unit: exactly the scaled reading *)
Theorem C18_sonar_native : forall r,
  (exists y, sonar_pw K (link_table T) u_inch r = Val y /\ y == r / (147 # 1000000)) /\
  (exists y, sonar_an K (link_table T) u_centimeter r = Val y /\ y == r / (49 # 10000)).
Proof. exact (fun r => sonar_native T K r HT HK). Qed.

End Builtin.

(* ---------------- pressure ---------------------------------------- *)

Section PressureSensor.
Variable K : sconsts.
Hypothesis HK : consts_ok K = true.

(* [supply s] is Vcc: the constructor's voltage_in, or Vn after calibrate() *)
Theorem C18_pressure_formula : forall s v,
  (1 # 100000) <= v -> ~ supply s == 0 ->
  exists y, pressure K s v = Val y /\ y == 250 * (v / supply s) - 25.
Proof. exact (pressure_formula K HK). Qed.

(* below the documented floor of 0.00001 V: the value at the floor *)
Theorem C18_pressure_below_floor : forall s v,
  v <= (1 # 100000) -> ~ supply s == 0 ->
  exists y, pressure K s v = Val y /\ y == 250 * ((1 # 100000) / supply s) - 25.
Proof. exact (pressure_below_floor K HK). Qed.

(* never raises: a value for every sensor state and every voltage; 0 exactly
   when the supply voltage is 0 *)
Theorem C18_pressure_total : forall s v,
  exists y, pressure K s v = Val y /\
    (supply s == 0 -> y == 0) /\
    (~ supply s == 0 -> y == 250 * (pymax v (1 # 100000) / supply s) - 25).
Proof. exact (pressure_total K HK). Qed.

Theorem C18_pressure_zero_branch : forall s v,
  pressure_try K s v = Raise ZeroDivisionError <-> supply s == 0.
Proof. exact (pressure_zero_branch K). Qed.

(* calibrate(p), p >= 0, at ANY voltage v (also below the floor, also
   negative): it does not raise, keeps voltage_in, and the sensor then
   reports p while the voltage is v *)
Theorem C18_calibrated : forall s v p,
  0 <= p ->
  exists s' y,
    calibrate K s v p = Val s' /\ voltage_in s' = voltage_in s /\
    pressure K s' v = Val y /\ y == p.
Proof. exact (calibrated K HK). Qed.

(* ... and at any other voltage v' it reports (p + 25) * V'/V - 25 with both
   voltages floored; the calibrated supply voltage is never 0 *)
Theorem C18_calibrated_general : forall s v p v',
  ~ p == -25 ->
  exists s' y,
    calibrate K s v p = Val s' /\ voltage_in s' = voltage_in s /\
    ~ supply s' == 0 /\
    pressure K s' v' = Val y /\
    y == (p + 25) * (pymax v' (1 # 100000) / pymax v (1 # 100000)) - 25.
Proof.
  intros s v p v' Hp. destruct (calibrated_general K HK s v p Hp) as (s' & Hc & Hv & Hn & Hr).
  destruct (Hr v') as (y & Hy & E). exists s', y. auto.
Qed.

(* outside the property's domain (p >= 0): calibrate(-25) raises *)
Theorem C18_calibrate_minus25_raises : forall s v p,
  p == -25 -> calibrate K s v p = Raise ZeroDivisionError.
Proof. exact (calibrate_raises K HK). Qed.

(* the two voltage floors of a checked record are positive *)
Theorem C18_floor_positive : 0 < c_floor K /\ 0 < c_cal_floor K.
Proof. exact (consts_ok_floor_pos K HK). Qed.

(* ---- one sensor object over ANY sequence of calls ------------------
   [sop] = OpRead v (the `pressure` getter while the input reads v volts) |
   OpCalibrate v p (`calibrate(p)` while the input reads v volts) |
   OpSetSupply vcc (the assignment `sensor.voltage_in = vcc` of the public
   supply-voltage attribute: the measured rail, or the real value after a
   placeholder at construction);
   [observations K s0 ops] = what each call returned, [final_state K s0 ops] =
   the object afterwards; [is_read o] = o is an OpRead; [no_calibrate o] = o is
   an OpRead or an OpSetSupply; [last_supply vcc ops] = the last value assigned
   to voltage_in by [ops], [vcc] if there is none. *)

(* reads never change the object (no caching, no drift) *)
Theorem C18_reads_keep_state : forall s ops,
  Forall is_read ops -> final_state K s ops = s.
Proof. exact (reads_keep_state K). Qed.

(* after calibrate(p), p >= 0, the sensor reports p at the calibration
   voltage -- whatever was done with the object before (reads, earlier
   calibrations, failed calibrations, assignments of voltage_in: [pre] is
   arbitrary) and however many reads at whatever voltages and assignments of
   voltage_in lie in between *)
Theorem C18_history_calibrated : forall s0 pre v p mid,
  0 <= p -> Forall no_calibrate mid ->
  exists obs y,
    observations K s0 (pre ++ OpCalibrate v p :: mid ++ [OpRead v]) = obs ++ [ObsRead (Val y)] /\
    y == p.
Proof.
  exact (fun s0 pre v p mid Hp => history_calibrated K HK s0 pre v p mid (nonneg_calibrates p Hp)).
Qed.

(* ... and at any other voltage v' the reading follows the LAST calibration *)
Theorem C18_history_calibrated_general : forall s0 pre v p mid v',
  ~ p == -25 -> Forall no_calibrate mid ->
  exists obs y,
    observations K s0 (pre ++ OpCalibrate v p :: mid ++ [OpRead v']) = obs ++ [ObsRead (Val y)] /\
    y == (p + 25) * (pymax v' (1 # 100000) / pymax v (1 # 100000)) - 25.
Proof. exact (history_calibrated_general K HK). Qed.

(* an uncalibrated sensor reports 250 V / Vcc - 25 after any number of reads *)
Theorem C18_history_uncalibrated : forall vcc reads v,
  Forall is_read reads -> (1 # 100000) <= v -> ~ vcc == 0 ->
  exists obs y,
    observations K (new_sensor vcc) (reads ++ [OpRead v]) = obs ++ [ObsRead (Val y)] /\
    y == 250 * (v / vcc) - 25.
Proof. exact (history_uncalibrated K HK). Qed.

(* "for every sensor reading and supply voltage": an uncalibrated sensor
   divides by the supply voltage it has NOW.  Built with vcc0, then ANY reads
   and ANY assignments of voltage_in, a read at v reports 250 v / Vcc - 25 with
   Vcc the last value given to voltage_in (vcc0 if it was never assigned) *)
Theorem C18_history_supply_tracked : forall vcc0 ops v,
  Forall no_calibrate ops -> (1 # 100000) <= v -> ~ last_supply vcc0 ops == 0 ->
  exists obs y,
    observations K (new_sensor vcc0) (ops ++ [OpRead v]) = obs ++ [ObsRead (Val y)] /\
    y == 250 * (v / last_supply vcc0 ops) - 25.
Proof. exact (history_supply_tracked K HK). Qed.

(* ... at every voltage and for every value of voltage_in: a value, never an
   exception; 0 exactly while voltage_in is 0 (a sensor built with 0 follows
   the formula as soon as voltage_in is given a non-zero value) *)
Theorem C18_history_supply_total : forall vcc0 ops v,
  Forall no_calibrate ops ->
  exists obs y,
    observations K (new_sensor vcc0) (ops ++ [OpRead v]) = obs ++ [ObsRead (Val y)] /\
    (last_supply vcc0 ops == 0 -> y == 0) /\
    (~ last_supply vcc0 ops == 0 ->
       y == 250 * (pymax v (1 # 100000) / last_supply vcc0 ops) - 25).
Proof. exact (history_supply_total K HK). Qed.

(* the assignment itself: nothing returned or raised, voltage_in replaced, Vn
   untouched; an uncalibrated sensor divides by the new value from the next
   read on, a calibrated one reads exactly as before *)
Theorem C18_history_set_supply : forall s vcc,
  step_obs K s (OpSetSupply vcc) = ObsSet /\
  voltage_in (step_state K s (OpSetSupply vcc)) = vcc /\
  vn (step_state K s (OpSetSupply vcc)) = vn s /\
  (vn s = None -> supply (step_state K s (OpSetSupply vcc)) = vcc) /\
  (vn s <> None -> forall v, pressure K (step_state K s (OpSetSupply vcc)) v = pressure K s v).
Proof. exact (step_set_supply K). Qed.

(* in no history does a read raise *)
Theorem C18_history_reads_never_raise : forall ops s0,
  Forall read_returns (observations K s0 ops).
Proof. exact (history_reads_never_raise K HK). Qed.

(* calibrate(p) returns for p <> -25; calibrate(-25) raises and leaves the
   object as it was *)
Theorem C18_history_calibrate_outcome : forall s v p,
  (~ p == -25 -> step_obs K s (OpCalibrate v p) = ObsCalibrate (Val tt)) /\
  (p == -25 -> step_state K s (OpCalibrate v p) = s /\
               step_obs K s (OpCalibrate v p) = ObsCalibrate (Raise ZeroDivisionError)).
Proof. exact (fun s v p => conj (step_calibrate_returns K HK s v p) (step_calibrate_fails K HK s v p)). Qed.

(* complete description: after ANY calls voltage_in is the last value assigned
   to it (the initial one if none); Vn is the initial one if no
   calibrate(p <> -25) was among the calls, else Vn is set and the object
   reads, at every voltage and whatever voltage_in is by now, as the last
   such calibration (vc, p) says *)
Theorem C18_history_spec : forall s0 ops,
  voltage_in (final_state K s0 ops) = last_supply (voltage_in s0) ops /\
  match last_cal ops with
  | None => vn (final_state K s0 ops) = vn s0
  | Some (vc, p) =>
      (exists n, vn (final_state K s0 ops) = Some n) /\
      forall v, exists y, pressure K (final_state K s0 ops) v = Val y /\
                          y == (p + 25) * (pymax v (1 # 100000) / pymax vc (1 # 100000)) - 25
  end.
Proof. exact (history_spec K HK). Qed.

(* reads and assignments of voltage_in: the object afterwards, exactly *)
Theorem C18_history_no_calibrate_state : forall s ops,
  Forall no_calibrate ops ->
  final_state K s ops = {| voltage_in := last_supply (voltage_in s) ops; vn := vn s |}.
Proof. exact (no_calibrate_state K). Qed.

End PressureSensor.

(* ---------------- non-vacuity -------------------------------------- *)

(* the table as the source has it today satisfies the hypothesis *)
Definition ref_table : ltable :=
  [ (None, (0, 0));
    (Some 0%nat, (1 # 100, 100));
    (Some 0%nat, (3048 # 10000, 10000 # 3048));
    (Some 2%nat, (1 # 12, 12)) ].
Example C18_nv_units_ok : units_ok ref_table = true /\ table_inverse ref_table = true.
Proof. split; vm_compute; reflexivity. Qed.
(* ... and so does a differently shaped table with the same meaning (inch
   hung directly below metre): the hypothesis does not fix the shape *)
Example C18_nv_units_ok_other_shape :
  units_ok [ (None, (0, 0)); (Some 0%nat, (1 # 100, 100));
             (Some 0%nat, (3048 # 10000, 10000 # 3048));
             (Some 0%nat, (254 # 10000, 10000 # 254)) ] = true.
Proof. vm_compute. reflexivity. Qed.
(* ... and a table with 0.3084 in one direction does not *)
Example C18_nv_units_ok_rejects :
  units_ok [ (None, (0, 0)); (Some 0%nat, (1 # 100, 100));
             (Some 0%nat, (3084 # 10000, 10000 # 3048));
             (Some 2%nat, (1 # 12, 12)) ] = false.
Proof. vm_compute. reflexivity. Qed.

(* metres_per a / metres_per b for the 16 ordered pairs, rows = source
   (metre, centimetre, foot, inch), columns = target *)
Example C18_nv_factor_matrix :
  map (fun a => map (fun b => Qred (metres_per a / metres_per b)) builtin_units) builtin_units =
  [ [1;           100;       1250 # 381; 5000 # 127];
    [1 # 100;     1;         25 # 762;   50 # 127];
    [381 # 1250;  762 # 25;  1;          12];
    [127 # 5000;  127 # 50;  1 # 12;     1] ].
Proof. vm_compute. reflexivity. Qed.

Example C18_nv_inch_to_cm :
  exists y, convert_tbl (link_table ref_table) u_inch u_centimeter 10 = Val y /\ y == 254 # 10.
Proof. eexists. split; [reflexivity|]. vm_compute. reflexivity. Qed.

(* user-defined chains: depth 3 of scalings, and affine temperature scales
   (kelvin <- celsius <- fahrenheit), which are mutually inverse, not linear *)
Definition nv_deep : list link := [scale_link 3; scale_link (1 # 7); scale_link (-2)].
Example C18_nv_deep : Forall link_scaling nv_deep /\ convert nv_deep [scale_link 5] 7 == -(6 # 5).
Proof.
  split; [|vm_compute; reflexivity].
  repeat (apply Forall_cons; [apply scale_link_scaling; discriminate|]). apply Forall_nil.
Qed.
Definition nv_celsius : link := affine_link 1 (27315 # 100).
Definition nv_fahrenheit : link := affine_link (5 # 9) (-(160 # 9)).
Example C18_nv_affine :
  Forall link_inverse [nv_fahrenheit; nv_celsius] /\
  convert [nv_fahrenheit; nv_celsius] [] 212 == 37315 # 100 /\
  convert [] [nv_fahrenheit; nv_celsius] (37315 # 100) == 212.
Proof.
  split; [|split; vm_compute; reflexivity].
  repeat (apply Forall_cons; [apply affine_link_inverse; discriminate|]). apply Forall_nil.
Qed.
(* the order of the second loop matters for such chains: unfolding the target
   chain from the wrong end gives another number *)
Example C18_nv_order_matters :
  ~ fold_left (fun acc l => from_base l acc) [nv_fahrenheit; nv_celsius] (37315 # 100) == 212.
Proof. vm_compute. discriminate. Qed.

(* the code has no "same root" check: converting between units of different
   ultimate base units silently returns a number *)
Example C18_nv_no_root_check :
  let tbl := [ (None, scale_link 1); (Some 0%nat, scale_link 2);
               (None, scale_link 1); (Some 2%nat, scale_link 10) ] in
  root_of tbl 1 = Val 0%nat /\ root_of tbl 3 = Val 2%nat /\
  convert_tbl tbl 1 3 5 = Val (2 * 5 / 10).
Proof. repeat split. Qed.
(* a cyclic base_unit chain: the loop of convert() does not end *)
Example C18_nv_cycle :
  convert_tbl [ (Some 1%nat, scale_link 2); (Some 0%nat, scale_link 3) ] 0 0 1 = Loops.
Proof. reflexivity. Qed.

(* re-entrant definitions: metre, centimetre, foot, inch as plain units, then
   4 yard (via convert(meter, inch, .) / 36), 5 fathom = 2 yd below yard,
   6 cable = 100 fathoms below fathom, 7 rod = 5.5 yd defined below foot via
   convert(foot, yard, .) / 5.5 -- a nested call whose own chain contains a
   callable that calls convert() again *)
Definition nv_yard_spec : list (option nat * uspec) :=
  [ (None, UAffine 1 0); (Some 0%nat, UAffine (1 # 100) 0);
    (Some 0%nat, UAffine (3048 # 10000) 0); (Some 2%nat, UAffine (1 # 12) 0);
    (Some 0%nat, UVia 0 3 36); (Some 4%nat, UAffine 2 0); (Some 5%nat, UAffine 100 0);
    (Some 2%nat, UVia 2 4 (11 # 2)) ].
Definition nv_built_value (a b : nat) (x : Q) : option Q :=
  match build_units nv_yard_spec with
  | Val tbl => match convert_built tbl a b x with Val y => Some (Qred y) | _ => None end
  | _ => None
  end.
Definition nv_built_log (a b : nat) : list (nat * bool) :=
  match build_units nv_yard_spec with
  | Val tbl => match trace_built tbl a b 1 with Val r => snd r | _ => [] end
  | _ => []
  end.
Example C18_nv_reentrant :
  spec_ok nv_yard_spec = true /\ spec_linear nv_yard_spec = true /\
  nv_built_value 5 0 1 = Some (1143 # 625) /\        (* 1 fathom = 1.8288 m *)
  nv_built_value 6 3 1 = Some 7200 /\                 (* 1 cable = 7200 in *)
  nv_built_value 7 5 4 = Some 11 /\                   (* 4 rods = 11 fathoms *)
  nv_built_value 0 7 (50292 # 10000) = Some 1 /\      (* 5.0292 m = 1 rod *)
  (* metre -> fathom: yard's base_to_unit, inside it foot and inch of the
     nested convert(meter, inch, .), and THEN fathom's base_to_unit *)
  nv_built_log 0 5 = [(4, false); (2, false); (3, false); (5, false)]%nat /\
  (* fathom -> rod: up fathom, yard (nested: inch, foot up); down foot, rod
     (nested convert(foot, yard, .): foot up; yard down, nested foot, inch down) *)
  nv_built_log 5 7 = [(5, true); (4, true); (3, true); (2, true);
                      (2, false); (7, false); (2, true); (4, false); (2, false); (3, false)]%nat.
Proof. repeat split; vm_compute; reflexivity. Qed.
(* a definition that mentions a unit not defined yet is rejected, not guessed *)
Example C18_nv_reentrant_forward_reference :
  build_units [ (None, UAffine 1 0); (Some 0%nat, UVia 0 2 3); (Some 0%nat, UAffine 2 0) ]
  = Raise NoSuchUnit.
Proof. reflexivity. Qed.

(* the documented constants pass the check; so do other fractions with the
   same values, other values do not *)
Example C18_nv_consts_ok : consts_ok doc_consts = true.
Proof. vm_compute. reflexivity. Qed.
Example C18_nv_consts_ok_other_fractions :
  consts_ok {| c_pw_unit := 3; c_pw_div := 294 # 2000000; c_an_unit := 1; c_an_div := 49 # 10000;
               c_scale := 500 # 2; c_offset := 25; c_floor := 1 # 100000; c_zero := 0 # 5;
               c_cal_floor := 2 # 200000; c_cal_slope := 1 # 250; c_cal_off := 1 # 10 |} = true.
Proof. vm_compute. reflexivity. Qed.
Example C18_nv_consts_ok_rejects :
  consts_ok {| c_pw_unit := 3; c_pw_div := 174 # 1000000; c_an_unit := 1; c_an_div := 49 # 10000;
               c_scale := 250; c_offset := 25; c_floor := 1 # 100000; c_zero := 0;
               c_cal_floor := 1 # 100000; c_cal_slope := 4 # 1000; c_cal_off := 1 # 10 |} = false
  /\ consts_ok {| c_pw_unit := 3; c_pw_div := 147 # 1000000; c_an_unit := 1; c_an_div := 49 # 10000;
               c_scale := 501 # 2; c_offset := 25; c_floor := 1 # 100000; c_zero := 0;
               c_cal_floor := 1 # 100000; c_cal_slope := 4 # 1000; c_cal_off := 1 # 10 |} = false.
Proof. split; vm_compute; reflexivity. Qed.

(* pressure: the repository's own test points (3.3 V supply, 2.0 V reading) *)
Example C18_nv_pressure :
  exists y, pressure doc_consts (new_sensor (33 # 10)) 2 = Val y /\ y == 4175 # 33 /\
  pressure doc_consts (new_sensor 0) 2 = Val 0.
Proof. eexists. split; [reflexivity|]. split; vm_compute; reflexivity. Qed.
Example C18_nv_calibrated :
  exists s' y, calibrate doc_consts (new_sensor (33 # 10)) 2 50 = Val s' /\ supply s' == 20 # 3 /\
               pressure doc_consts s' 2 = Val y /\ y == 50.
Proof.
  eexists. eexists. split; [reflexivity|]. split; [vm_compute; reflexivity|].
  split; [reflexivity|]. vm_compute. reflexivity.
Qed.

(* histories: a reading taken BEFORE calibrate() does not affect the reading
   after it (read, calibrate(50) at 2 V, read -> 4175/33 then 50), nor does a
   reading between two calibrations *)
Example C18_nv_history :
  observations doc_consts (new_sensor (33 # 10)) [OpRead 2; OpCalibrate 2 50; OpRead 2] =
    [ObsRead (Val (250 * (2 / (33 # 10)) - 25)); ObsCalibrate (Val tt);
     ObsRead (Val (250 * (2 / (2 / ((4 # 1000) * 50 + (1 # 10)))) - 25))] /\
  250 * (2 / (2 / ((4 # 1000) * 50 + (1 # 10)))) - 25 == 50 /\
  last_cal [OpCalibrate 1 20; OpRead 1; OpCalibrate (31 # 10) 110; OpCalibrate 3 (-25); OpRead 3] =
    Some (31 # 10, 110) /\
  (exists y, pressure doc_consts (final_state doc_consts (new_sensor 5)
               [OpCalibrate 1 20; OpRead 1; OpCalibrate (31 # 10) 110; OpCalibrate 3 (-25); OpRead 3]) (31 # 10) = Val y
             /\ y == 110) /\
  Forall is_read [OpRead 1; OpRead (1 # 2)] /\ ~ is_read (OpCalibrate 1 1).
Proof.
  split; [reflexivity|]. split; [vm_compute; reflexivity|]. split; [reflexivity|].
  split; [eexists; split; [reflexivity|vm_compute; reflexivity]|].
  split; [repeat constructor|exact (fun H => H)].
Qed.

(* the supply voltage tracked while running: a sensor built for the nominal
   5 V reads 75 at 2 V, after `voltage_in = 3.3` it reads 4175/33 at the same
   2 V; a sensor built with 0 reports 0, and 75 once voltage_in = 5; after
   calibrate(50) at 2 V the assignment no longer matters *)
Example C18_nv_supply_tracked :
  observations doc_consts (new_sensor 5) [OpRead 2; OpSetSupply (33 # 10); OpRead 2] =
    [ObsRead (Val (250 * (2 / 5) - 25)); ObsSet; ObsRead (Val (250 * (2 / (33 # 10)) - 25))] /\
  250 * (2 / 5) - 25 == 75 /\ 250 * (2 / (33 # 10)) - 25 == 4175 # 33 /\
  observations doc_consts (new_sensor 0) [OpRead 2; OpSetSupply 5; OpRead 2] =
    [ObsRead (Val 0); ObsSet; ObsRead (Val (250 * (2 / 5) - 25))] /\
  last_supply 5 [OpRead 2; OpSetSupply (33 # 10); OpRead 2; OpSetSupply (47 # 10); OpCalibrate 1 1] = 47 # 10 /\
  last_supply 5 [OpRead 2; OpCalibrate 1 1] = 5 /\
  Forall no_calibrate [OpRead 2; OpSetSupply (33 # 10); OpRead 2] /\ ~ no_calibrate (OpCalibrate 1 1) /\
  (exists y, pressure doc_consts (final_state doc_consts (new_sensor 5)
               [OpCalibrate 2 50; OpSetSupply (47 # 10); OpRead 1; OpSetSupply 0]) 2 = Val y /\ y == 50).
Proof.
  split; [reflexivity|]. split; [vm_compute; reflexivity|]. split; [vm_compute; reflexivity|].
  split; [reflexivity|]. split; [reflexivity|]. split; [reflexivity|].
  split; [repeat constructor|]. split; [exact (fun H => H)|].
  eexists. split; [reflexivity|vm_compute; reflexivity].
Qed.

Print Assumptions C18_same_unit.
Print Assumptions C18_there_and_back.
Print Assumptions C18_composition.
Print Assumptions C18_linear.
Print Assumptions C18_scaling_links_qualify.
Print Assumptions C18_table_same_unit.
Print Assumptions C18_table_there_and_back.
Print Assumptions C18_table_composition.
Print Assumptions C18_table_linear.
Print Assumptions C18_application_order.
Print Assumptions C18_reentrant_link.
Print Assumptions C18_reentrant_units_qualify.
Print Assumptions C18_reentrant_consistent.
Print Assumptions C18_reentrant_linear.
Print Assumptions C18_reentrant_returns.
Print Assumptions C18_reentrant_log_value.
Print Assumptions C18_reentrant_application_order.
Print Assumptions C18_reentrant_callable_log.
Print Assumptions C18_constants.
Print Assumptions C18_pairwise_factors.
Print Assumptions C18_builtin_chains_qualify.
Print Assumptions C18_sonar_scale.
Print Assumptions C18_sonar_native.
Print Assumptions C18_pressure_formula.
Print Assumptions C18_pressure_below_floor.
Print Assumptions C18_pressure_total.
Print Assumptions C18_pressure_zero_branch.
Print Assumptions C18_calibrated.
Print Assumptions C18_calibrated_general.
Print Assumptions C18_calibrate_minus25_raises.
Print Assumptions C18_floor_positive.
Print Assumptions C18_reads_keep_state.
Print Assumptions C18_history_calibrated.
Print Assumptions C18_history_calibrated_general.
Print Assumptions C18_history_uncalibrated.
Print Assumptions C18_history_supply_tracked.
Print Assumptions C18_history_supply_total.
Print Assumptions C18_history_set_supply.
Print Assumptions C18_history_reads_never_raise.
Print Assumptions C18_history_calibrate_outcome.
Print Assumptions C18_history_spec.
Print Assumptions C18_history_no_calibrate_state.
